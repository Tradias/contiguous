(* RaceThm.v — const operations are conflict free under every interleaving (C19): they read
   only the vectors' locations, which are shared, and write only memory private to the writing
   thread, so two accesses of different threads never meet in a write. *)
From Coq Require Import ZArith List.
From Cntgs Require Import Layout Race.
Import ListNotations.
Local Open Scope Z_scope.

Definition is_priv (l : loc) : bool := match l with LPriv _ _ => true | _ => false end.

(* the vector a location belongs to, none for thread-private memory; every location read in
   vector s carries s (table_reads_own, elem_reads_own, all_reads_own) *)
Definition loc_of (l : loc) : option nat :=
  match l with LRec s | LSlot s _ | LByte s _ => Some s | LPriv _ _ => None end.

Lemma table_reads_own L s i : Forall (fun l => loc_of l = Some s) (table_reads L s i).
Proof. unfold table_reads. destruct (has_varying L); repeat constructor. Qed.

Lemma elem_reads_own L v s i : Forall (fun l => loc_of l = Some s) (elem_reads L v s i).
Proof.
  unfold elem_reads. constructor; [reflexivity|]. apply Forall_app. split; [apply table_reads_own|].
  apply Forall_forall. intros l Hl. apply in_map_iff in Hl. destruct Hl as (k & <- & _). reflexivity.
Qed.

Lemma all_reads_own L v s : Forall (fun l => loc_of l = Some s) (all_reads L v s).
Proof.
  unfold all_reads. constructor; [reflexivity|]. apply Forall_forall. intros l Hl.
  apply in_flat_map in Hl. destruct Hl as (i & _ & Hl).
  exact (proj1 (Forall_forall _ _) (elem_reads_own L v s (Z.of_nat i)) l Hl).
Qed.

Lemma own_shared s ls : Forall (fun l => loc_of l = Some s) ls -> Forall (fun l => is_priv l = false) ls.
Proof. apply Forall_impl. intros [] H; try reflexivity. discriminate. Qed.

Lemma reads_shared L vs c : Forall (fun l => is_priv l = false) (reads L vs c).
Proof.
  destruct c; cbn [reads].
  - apply (own_shared s). constructor; [reflexivity|apply table_reads_own].
  - eapply own_shared, elem_reads_own.
  - eapply own_shared, all_reads_own.
  - apply Forall_app. split; eapply own_shared, all_reads_own.
  - eapply own_shared, all_reads_own.
  - eapply own_shared, elem_reads_own.
Qed.

Lemma writes_private L vs tid c : Forall (fun l => exists k, l = LPriv tid k) (writes L vs tid c).
Proof.
  destruct c; cbn [writes]; try constructor;
    apply Forall_forall; intros l Hl; apply in_map_iff in Hl; destruct Hl as (k & <- & _); eexists; reflexivity.
Qed.

Lemma access_cases L vs tid c x : In x (accesses L vs tid c) ->
  a_tid x = tid /\
  ((a_write x = false /\ is_priv (a_loc x) = false) \/ (a_write x = true /\ exists k, a_loc x = LPriv tid k)).
Proof.
  unfold accesses. intros H. apply in_app_or in H. destruct H as [H|H]; apply in_map_iff in H; destruct H as (l & <- & Hl).
  - split; [reflexivity|left]. split; [reflexivity|].
    pose proof (reads_shared L vs c) as Hs. rewrite Forall_forall in Hs. apply Hs. exact Hl.
  - split; [reflexivity|right]. split; [reflexivity|].
    pose proof (writes_private L vs tid c) as Hp. rewrite Forall_forall in Hp. apply Hp. exact Hl.
Qed.

(* any number of threads, any programs of const operations, any interleaving: no two
   accesses conflict *)
Theorem const_operations_never_conflict L vs progs tr :
  from_programs L vs progs tr ->
  forall x y, In x tr -> In y tr -> ~ conflict x y.
Proof.
  intros Hfp x y Hx Hy (Htid & Hloc & Hw).
  destruct (Hfp x Hx) as (cx & _ & Hax). destruct (Hfp y Hy) as (cy & _ & Hay).
  destruct (access_cases _ _ _ _ _ Hax) as (_ & Hcx). destruct (access_cases _ _ _ _ _ Hay) as (_ & Hcy).
  destruct Hcx as [(Hwx & Hsx) | (Hwx & kx & Hlx)]; destruct Hcy as [(Hwy & Hsy) | (Hwy & ky & Hly)].
  - destruct Hw as [Hw|Hw]; congruence.
  - rewrite Hloc, Hly in Hsx. discriminate.
  - rewrite <- Hloc, Hlx in Hsy. discriminate.
  - rewrite Hlx, Hly in Hloc. injection Hloc as E _. apply Htid. exact E.
Qed.
