(* C03 — objects of AlignAs<T,A> parameters are always A-aligned.
   Statements only; proofs are in LayoutThm.v (placement) and LayoutHist.v (vector level). *)
From Coq Require Import ZArith List.
From Cntgs Require Import Base BaseLemmas Layout LayoutThm Vector Proxy Spec Rep Refine NtRefine LayoutHist.
Import ListNotations.
Local Open Scope Z_scope.

(* Soundness of the compile-time trailing-alignment analysis: for EVERY well-formed
   parameter list, every object count per field and every address that is a multiple of
   the storage alignment, every field is stored at (emplace_at) / loaded from
   (load_element_at) an address that is a multiple of its parameter's alignment. *)
Theorem C03_placement_aligned : forall L cnts a,
  wf_plist L = true -> Forall2 cnt_ok L cnts -> 0 <= a -> (SA L | a) ->
  Forall2 (fun p x => (pal p | x)) L (fst (place L cnts a)).
Proof. exact place_aligned. Qed.
Print Assumptions C03_placement_aligned.

(* relocation by a multiple of the storage alignment (memmove in erase, memcpy into a new
   block whose base is SA-aligned) shifts every field by that amount: alignment is kept *)
Theorem C03_relocation_keeps_alignment : forall L cnts a d,
  wf_plist L = true -> (SA L | d) ->
  fst (place L cnts (a + d)) = map (fun x => x + d) (fst (place L cnts a)).
Proof. exact place_shift_fst. Qed.
Print Assumptions C03_relocation_keeps_alignment.

(* the as-written bit tricks of memory.hpp compute the mathematical functions the
   theorems above are stated with, in the no-overflow domain *)
Theorem C03_align_as_written : forall pos k, 0 <= k < 62 -> 0 <= pos < 2^62 ->
  align64 pos (2^k) = align_up pos (2^k).
Proof. exact align64_spec. Qed.
Print Assumptions C03_align_as_written.

Theorem C03_lowbit_as_written : forall v, 0 <= v < 2^64 -> lowbit64 v = lowbit v.
Proof. exact lowbit64_spec. Qed.
Print Assumptions C03_lowbit_as_written.

(* non-vacuity: a mixed list with decreasing and increasing alignments *)
Example C03_example :
  let L := [ {| pk := Plain; psz := 4; pal := 1; pty := TUInt |};
             {| pk := Plain; psz := 8; pal := 8; pty := TUInt |};
             {| pk := Varying; psz := 4; pal := 16; pty := TBlob |};
             {| pk := Fixed; psz := 3; pal := 2; pty := TBlob |} ] in
  wf_plist L = true /\ place L [1; 1; 3; 5] 32 = ([32; 40; 48; 60], 75).
Proof. vm_compute. split; reflexivity. Qed.

(* ---------- vector level: what the library computes when element i is accessed ----------
   In EVERY represented state (Rep: list of tuples, offsets, bookkeeping - what every valid
   history reaches) the field table loaded for element i (address and object count of each
   field) is the placement of that element's tuple: the element starts at a multiple of the
   storage alignment and every field at a multiple of its parameter's alignment (C03).  The
   remaining conjuncts are what C04 asks for; Properties_C04.v states them again.
   Offsets are relative to the block, whose base the allocator aligns to the storage unit. *)
Theorem C03_represented_states : forall L, wf_plist L = true -> forall v l offs, RepO L v l offs ->
  forall i, (i < length l)%nat ->
    let t := nth i l [] in
    let a := eaddr L v (Z.of_nat i) in
    let fl := vfl L v (Z.of_nat i) in
    0 <= a /\ (SA L | a) /\
    Forall2 (fun p x => (pal p | x)) L (map fst fl) /\
    map snd fl = cnts_of t /\
    hd a (map fst fl) = a /\
    ordered_from a (extents L (cnts_of t) (map fst fl)) (elem_end L a t) /\
    elem_end L a t <= dend L v /\
    (forall k, (i < k < length l)%nat -> elem_end L a t <= eaddr L v (Z.of_nat k)).
Proof. exact rep_element_layout. Qed.
Print Assumptions C03_represented_states.

(* ... hence after EVERY valid history of emplace_back / pop_back / erase / clear / reserve from
   construction, for every well-formed list (erase with elements behind the erased ones on
   trivially relocatable lists and on lists without a VaryingSize parameter,
   NtRefine.nt_hist_okx) *)
Theorem C03_every_history : forall L cap budget fixed aid junk bid tbid h,
  wf_plist L = true -> 0 <= cap -> Forall (fun c => 0 <= c) fixed ->
  let v0 := fst (mkvec L cap budget fixed aid junk bid tbid) in
  let s0 := {| s_cap := cap; s_elems := [] |} in
  shist_valid L (fixed_counts L fixed) s0 h -> nt_hist_okx L s0 h ->
  let v := vrun L junk v0 h in
  let l := s_elems (srun s0 h) in
  forall i, (i < length l)%nat ->
    let t := nth i l [] in
    let a := eaddr L v (Z.of_nat i) in
    let fl := vfl L v (Z.of_nat i) in
    0 <= a /\ (SA L | a) /\
    Forall2 (fun p x => (pal p | x)) L (map fst fl) /\
    map snd fl = cnts_of t /\
    hd a (map fst fl) = a /\
    ordered_from a (extents L (cnts_of t) (map fst fl)) (elem_end L a t) /\
    elem_end L a t <= dend L v /\
    (forall k, (i < k < length l)%nat -> elem_end L a t <= eaddr L v (Z.of_nat k)).
Proof. exact layout_every_history. Qed.
Print Assumptions C03_every_history.
