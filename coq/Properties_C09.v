(* C09 — copy, move and swap have value semantics. *)
From Coq Require Import ZArith List.
From Cntgs Require Import Layout Vector World Rep WorldThm StableThm NtWorld.
Import ListNotations.
Local Open Scope Z_scope.

(* copies represent the same list of tuples as the source, in their own block, and leave
   the source record untouched; since a vector's bytes live in its own record, later
   operations on one cannot change what the other represents (independence) *)
Theorem C09_copy_construction : forall L, wf_plist L = true -> all_triv L = true -> all_ctriv false L = true ->
  forall K src l junk nb, Rep L src l ->
  let '(d, src', evs, nb') := copy_ctor K L src junk nb in
  Rep L d l /\ src' = src /\ v_aid d = soccc K (v_aid src) /\
  v_cap d = v_cap src /\ v_fixed d = v_fixed src /\ v_bid d = Some nb.
Proof. exact (fun L Hwf _ _ => copy_ctor_spec_nt L Hwf). Qed.
Print Assumptions C09_copy_construction.

Theorem C09_copy_assignment : forall L, wf_plist L = true -> all_triv L = true -> all_ctriv false L = true ->
  forall K d src l junk nb, Rep L src l ->
  let '(d', src', evs, nb') := copy_assign K L d src junk nb in
  Rep L d' l /\ src' = src /\
  v_aid d' = (if pocca K then v_aid src else v_aid d) /\
  v_cap d' = v_cap src /\ v_fixed d' = v_fixed src.
Proof. exact (fun L Hwf _ _ => copy_assign_spec_nt L Hwf). Qed.
Print Assumptions C09_copy_assignment.

(* move assignment gives the target exactly the source's former contents, whatever the
   target held and however large it was *)
Theorem C09_move_assignment : forall L, wf_plist L = true -> all_triv L = true ->
  forall K d src l junk nb, Rep L src l ->
  let '(d', src', evs, nb') := move_assign K L d src junk nb in
  Rep L d' l /\
  v_aid d' = (if pocma K then v_aid src else v_aid d) /\
  (src' = moved_from src \/ src' = src).
Proof. exact move_assign_spec. Qed.
Print Assumptions C09_move_assignment.

Theorem C09_swap : forall L K a b la lb, Rep L a la -> Rep L b lb ->
  Rep L (fst (swap_vec K a b)) lb /\ Rep L (snd (swap_vec K a b)) la /\
  v_aid (fst (swap_vec K a b)) = (if pocs K then v_aid b else v_aid a) /\
  v_aid (snd (swap_vec K a b)) = (if pocs K then v_aid a else v_aid b).
Proof. exact swap_spec. Qed.
Print Assumptions C09_swap.

(* a moved-from vector has no memory and size 0; destroying it frees nothing *)
Theorem C09_moved_from_state : forall L v,
  vsize L (moved_from v) = 0 /\ v_bid (moved_from v) = None /\ destroy L (moved_from v) = [].
Proof. exact moved_from_empty. Qed.
Print Assumptions C09_moved_from_state.

(* copies and moves for EVERY well-formed parameter list, non-trivial value types included
   (NtWorld.v): the relocation through the copy / move constructors reproduces every byte in
   the target (NtRefine.insert_into_mem); a copy leaves the source record untouched; after an
   element-wise move the source keeps its block, only its memory differs (moved-from
   objects) *)
Theorem C09_copy_construction_every_list : forall L, wf_plist L = true ->
  forall K src l junk nb, Rep L src l ->
  let '(d, src', evs, nb') := copy_ctor K L src junk nb in
  Rep L d l /\ src' = src /\ v_aid d = soccc K (v_aid src) /\
  v_cap d = v_cap src /\ v_fixed d = v_fixed src /\ v_bid d = Some nb.
Proof. exact copy_ctor_spec_nt. Qed.
Print Assumptions C09_copy_construction_every_list.

Theorem C09_copy_assignment_every_list : forall L, wf_plist L = true ->
  forall K d src l junk nb, Rep L src l ->
  let '(d', src', evs, nb') := copy_assign K L d src junk nb in
  Rep L d' l /\ src' = src /\
  v_aid d' = (if pocca K then v_aid src else v_aid d) /\
  v_cap d' = v_cap src /\ v_fixed d' = v_fixed src.
Proof. exact copy_assign_spec_nt. Qed.
Print Assumptions C09_copy_assignment_every_list.

Theorem C09_move_assignment_every_list : forall L, wf_plist L = true ->
  forall K d src l junk nb, Rep L src l ->
  let '(d', src', evs, nb') := move_assign K L d src junk nb in
  Rep L d' l /\
  v_aid d' = (if pocma K then v_aid src else v_aid d) /\
  (src' = moved_from src \/ exists ms, src' = set_mem src ms).
Proof. exact move_assign_spec_nt. Qed.
Print Assumptions C09_move_assignment_every_list.
