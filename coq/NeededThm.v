(* NeededThm.v — the memory the library requests is enough (C02): N elements whose varying
   payload adds up to at most B bytes, stored one after the other as emplace_back does, end
   inside the calculate_needed_memory_size(N, B, calculate_element_size(fixed sizes)) bytes.
   This holds for the parameter lists [tail_ok] accepts: the last parameter is a VaryingSize
   one, or a parameter with the storage alignment stands behind the last VaryingSize one, or
   there is no VaryingSize parameter at all ([tail_ok_novar]; EsizeThm has the exact sizes for
   those).  For other lists with a plain or FixedSize parameter behind their last VaryingSize
   one the bound fails: C02Thm.needed_refuted, the known finding.
   The proof runs two abstract interpretations of the element side by side with its concrete
   placement: the trailing-alignment analysis (LayoutThm.step_sound) tells which alignment
   steps the code takes, and the size computation aligned_size_in_memory is shown to
   over-approximate the bytes used, keeping "address = offset modulo bracket". *)
From Coq Require Import ZArith Lia List Bool.
From Cntgs Require Import Base BaseLemmas Layout LayoutThm EsizeThm C02Thm.
Import ListNotations.
Local Open Scope Z_scope.

Lemma align_gap x t s : pow2 t -> pow2 s -> t <= s -> (t | x) -> align_up x s - x <= s - t.
Proof.
  intros Ht Hs Hle Hx.
  pose proof (pow2_pos _ Ht) as Htp. pose proof (pow2_pos _ Hs) as Hsp.
  pose proof (align_up_ge x s Hsp) as Hge. pose proof (align_up_div x s Hsp) as Hd.
  assert (Hts : (t | s)) by (apply pow2_divide; auto).
  (* [t] divides the positive rest of the gap *)
  assert (Hg : (t | s - (align_up x s - x))).
  { apply Z.divide_sub_r; [exact Hts|]. apply Z.divide_sub_r; [eapply Z.divide_trans; eauto|exact Hx]. }
  apply Z.divide_pos_le in Hg; lia.
Qed.

(* a bracket [al] smaller than the field's alignment [pal] does not determine the padding in
   front of the field; [align_up off al + pal - al - off], which aligned_size_in_memory adds
   in that case, is the worst case *)
Lemma pad_bound x off al pal : pow2 al -> pow2 pal -> al < pal -> 0 <= off -> (al | x - off) ->
  align_up x pal - x <= align_up off al - off + pal - al.
Proof.
  intros Hal Hpal Hlt Hoff [q Hq].
  pose proof (pow2_pos _ Hal) as Hap. pose proof (pow2_pos _ Hpal) as Hpp.
  pose proof (align_up_ge off al Hap) as Hd.
  (* [y]: what aligning the offset to [al] does to the address; it is [al]-aligned *)
  set (y := x + (align_up off al - off)).
  assert (Hy : (al | y)).
  { unfold y. replace (x + (align_up off al - off)) with (q * al + align_up off al) by lia.
    apply Z.divide_add_r; [apply Z.divide_factor_r|apply align_up_div; exact Hap]. }
  pose proof (align_up_mono x y pal Hpp ltac:(unfold y; lia)) as Hm.
  pose proof (align_gap y al pal Hal Hpal ltac:(lia) Hy) as Hg. unfold y in *. lia.
Qed.

Lemma pad_exact x off al pal : pow2 al -> pow2 pal -> pal <= al -> (al | x - off) ->
  align_up x pal - x = align_up off pal - off.
Proof. intros Hal Hpal Hle Hd. pose proof (align_up_congr x off pal al Hpal Hal Hle Hd). lia. Qed.

Lemma gap_if x t s : pow2 t -> pow2 s -> t <= s -> (t | x) -> align_up x s - x <= if t <? s then s - t else 0.
Proof. intros Ht Hs Hle Hx. pose proof (align_gap x t s Ht Hs Hle Hx). destruct (Z.ltb_spec t s); lia. Qed.

(* the padding in front of a field (concrete <= abstract) and what is known about the
   aligned address, in the two alignment regimes *)
Lemma front_pad x off al pl b xs ao : pow2 al -> pow2 pl -> 0 <= off -> (al | x - off) ->
  xs = align_if b pl x -> xs = align_up x pl ->
  ao = (if al <? pl then align_up off al + pl - al else align_if b pl off) ->
  xs - x <= ao - off /\ off <= ao /\ (if al <? pl then (pl | xs) else (al | xs - ao)).
Proof.
  intros Hal Hpl Hoff Hcg Eb Exs ->. pose proof (pow2_pos _ Hal) as Hap. pose proof (pow2_pos _ Hpl) as Hpp.
  destruct (Z.ltb_spec al pl) as [Hlt|Hge].
  - pose proof (align_up_ge off al Hap). pose proof (pad_bound x off al pl Hal Hpl Hlt Hoff Hcg).
    rewrite Exs. split; [lia|split; [lia|apply align_up_div, Hpp]].
  - subst xs. unfold align_if. destruct b.
    + pose proof (pad_exact x off al pl Hal Hpl Hge Hcg) as E. pose proof (align_up_ge off pl Hpp).
      replace (align_up x pl - align_up off pl) with (x - off) by lia.
      split; [lia|split; [lia|exact Hcg]].
    + split; [lia|split; [lia|exact Hcg]].
Qed.

(* object counts of an element: 1 for plain, the fixed size for FixedSize, anything for VaryingSize *)
Fixpoint cnts_fit (L : list param) (fc cnts : list Z) : Prop :=
  match L, cnts with
  | [], [] => True
  | p :: L', c :: cnts' =>
      0 <= c /\ (pk p = Plain -> c = 1) /\ (pk p = Fixed -> c = hd 0 fc) /\ cnts_fit L' (tl fc) cnts'
  | _, _ => False
  end.

Section Needed.
  Variable S0 : Z.
  Hypothesis HS : pow2 S0.

  (* the padding behind a plain / FixedSize last parameter is exact when the bracket is the
     storage alignment *)
  Lemma pad_nonvar sz al c xs no x' :
    0 < sz -> pow2 al -> (al | xs) -> x' = xs + c * sz -> (S0 | x' - no) ->
    align_up x' S0 - x' <= align_if (tr_align sz al <? S0) S0 no - no.
  Proof.
    intros Hs Hal Hxs Ex Hd. pose proof (pow2_pos _ HS) as HSp.
    unfold align_if. destruct (Z.ltb_spec (tr_align sz al) S0) as [Hlt|Hge].
    - rewrite (pad_exact x' no S0 S0 HS HS (Z.le_refl _) Hd). apply Z.le_refl.
    - (* the trailing alignment, which divides x', is a multiple of S0 *)
      rewrite align_up_id; [lia|exact HSp|]. subst x'.
      eapply Z.divide_trans; [|apply (tr_align_div sz al xs (c * sz)); auto using Z.divide_factor_r].
      apply pow2_divide; auto using tr_align_pow2.
  Qed.

  (* one parameter: aligned_size_in_memory over-approximates the bytes the placement uses
     (the varying payload excepted) and keeps "address = offset modulo bracket" *)
  Lemma asz_step p prev next off al fixed x c st :
    wfp p -> pal p <= S0 -> cnt_ok p c -> (pk p = Fixed -> c = fixed) ->
    Inv st prev x ->
    0 <= off -> pow2 al -> al <= S0 -> (al | x - off) -> (is_varying p = true -> 0 < off) ->
    let xs := align_if (prev <? pal p) (pal p) x in
    let x' := xs + c * psz p in
    let r := asz p prev next off al fixed in
    let no := fst (fst (fst r)) in let sz := snd (fst (fst r)) in let al' := snd r in
    0 <= no /\ pow2 al' /\ al' <= S0 /\ (al' | x' - no) /\
    x' - x - (if is_varying p then c * psz p else 0) <= sz /\
    (is_plain p = true -> 0 < no) /\
    (is_varying p = true -> no = 0) /\
    (next = S0 -> is_varying p = true \/ al' = S0 -> align_up x' S0 - x' <= snd (fst r)).
  Proof.
    intros [Hs Hpal] Hple [Hc Hc1] Hcf HI Hoff Hal HalS Hcg Hvoff.
    destruct st as [soff br]. destruct HI as (_ & _ & _ & _ & Hp & Hpd).
    cbv zeta. set (xs := align_if (prev <? pal p) (pal p) x).
    assert (Exs : xs = align_up x (pal p)) by (apply align_if_prev; assumption).
    pose (ao := if al <? pal p then align_up off al + pal p - al else align_if (prev <? pal p) (pal p) off).
    destruct (front_pad x off al (pal p) (prev <? pal p) xs ao Hal Hpal Hoff Hcg eq_refl Exs eq_refl) as (Hpad & Hao & Hknown).
    assert (Hxsd : (pal p | xs)) by (rewrite Exs; apply align_up_div, pow2_pos, Hpal).
    pose proof (mul_size_nonneg c (psz p) Hc Hs) as Hcp.
    destruct (is_varying p) eqn:Hv.
    - (* VaryingSize: the bracket becomes the trailing alignment of the span *)
      rewrite (asz_var p prev next off al fixed Hv). cbv zeta. fold ao. cbn [fst snd].
      assert (Hpl : is_plain p = false) by (unfold is_varying, is_plain in *; destruct (pk p); try discriminate; reflexivity).
      rewrite Hpl.
      pose proof (Z.lt_le_trans _ _ _ (Hvoff eq_refl) Hao) as Haop.
      set (T := tr_align (psz p) (lowbit ao)).
      assert (HT : pow2 T) by (apply tr_align_pow2; [exact Hs|apply lowbit_spec, Haop]).
      assert (HTd : forall z, (lowbit ao | z) -> (Z.min al T | z + c * psz p)).
      { intros z Hz. eapply Z.divide_trans; [apply pow2_min_div_r; auto|].
        apply tr_align_div; auto using Z.divide_factor_r. apply lowbit_spec, Haop. }
      assert (Hx' : (Z.min al T | xs + c * psz p)).
      { destruct (Z.ltb_spec al (pal p)) as [Hlt|Hge].
        - apply Z.divide_add_r; [|apply (HTd 0), Z.divide_0_r].
          eapply Z.divide_trans; [apply pow2_min_div_l; auto|]. eapply Z.divide_trans; [|exact Hknown].
          apply pow2_divide; auto using Z.lt_le_incl.
        - replace (xs + c * psz p) with (ao + c * psz p + (xs - ao)) by lia.
          apply Z.divide_add_r; [apply HTd, lowbit_spec, Haop|].
          eapply Z.divide_trans; [apply pow2_min_div_l; auto|exact Hknown]. }
      assert (Hm : pow2 (Z.min al T)) by (apply pow2_min; auto).
      assert (HmS : Z.min al T <= S0) by (clear - HalS; lia).
      split; [apply Z.le_refl|]. split; [exact Hm|]. split; [exact HmS|]. split; [rewrite Z.sub_0_r; exact Hx'|].
      split; [clear - Hpad; lia|]. split; [discriminate|]. split; [reflexivity|].
      intros -> _. apply gap_if; auto.
    - (* plain or FixedSize: the bracket grows to the field's alignment *)
      rewrite (asz_nonvar p prev next off al fixed c Hv Hc1 Hcf). cbv zeta. fold ao. cbn [fst snd].
      set (no := if al <? pal p then c * psz p else off + (ao - off + c * psz p)).
      assert (Hno : c * psz p <= no /\ (Z.max al (pal p) | xs + c * psz p - no)).
      { unfold no. destruct (Z.ltb_spec al (pal p)) as [Hlt|Hge].
        - rewrite Z.max_r, Z.add_simpl_r by apply Z.lt_le_incl, Hlt. split; [apply Z.le_refl|exact Hknown].
        - rewrite Z.max_l by exact Hge. replace (xs + c * psz p - (off + (ao - off + c * psz p))) with (xs - ao) by lia.
          split; [clear - Hoff Hao; lia|exact Hknown]. }
      destruct Hno as [Hno Hnd].
      split; [clear - Hno Hcp; lia|]. split; [apply pow2_max; auto|]. split; [apply Z.max_lub; assumption|].
      split; [exact Hnd|]. split; [clear - Hpad; lia|].
      split; [|split; [discriminate|]].
      + unfold is_plain. destruct (pk p); try discriminate. intros _. rewrite (Hc1 eq_refl) in Hno. clear - Hno Hs. lia.
      + intros -> [Hv'|Hal']; [discriminate|]. rewrite Hal' in Hnd.
        apply pad_nonvar with (c := c) (xs := xs); auto.
  Qed.
End Needed.

(* when is the padding behind the last parameter computed exactly (or safely)?  If the last
   parameter is a VaryingSize one, or if a parameter with the storage alignment follows the
   last VaryingSize one ([b]: the bracket is known to be the storage alignment). *)
Fixpoint tail_ok (S0 : Z) (b : bool) (L : list param) : bool :=
  match L with
  | [] => b
  | p :: L' =>
      match L' with
      | [] => is_varying p || b || (pal p =? S0)
      | _ => tail_ok S0 (if is_varying p then false else b || (pal p =? S0)) L'
      end
  end.

Section Bound.
  Variable L0 : list param.
  Hypothesis Hwf0 : wf_plist L0 = true.
  Let S0 := SA L0.
  Let HS : pow2 S0 := SA_pow2 L0 (wf_plist_Forall L0 Hwf0) (wf_plist_nonempty L0 Hwf0).

  (* calculate_element_size over-approximates the placement, for the rest [L] of the list [L0]
     from parameter [k] on ([S0] is [SA L0]).  [pp]: the parameter in front of [L] is a plain
     one (as a VaryingSize head of [L] requires), behind which the offset is positive; [b]: the
     bracket [al] is known to be the storage alignment, see [tail_ok].  [k] and the table
     hypothesis on [prev_tr] only serve to replace the index arithmetic of [esize_from] by
     [esize_run]. *)
  Lemma esize_from_bound L : forall k fc cnts st prev size off pad al x pp b,
    Forall wfp L -> (forall p, In p L -> pal p <= S0) ->
    cnts_fit L fc cnts ->
    Inv st prev x -> 0 <= off -> pow2 al -> al <= S0 -> (al | x - off) ->
    wf_varying pp L = true -> (pp = true -> 0 < off) -> (b = true -> al = S0) ->
    (forall j, (j <= length L)%nat -> prev_tr L0 (k + j) = nth j (prev :: trails_from L st) 0) ->
    (k + length L = length L0)%nat ->
    let e := snd (place_from L (prev :: trails_from L st) cnts x) in
    let r := esize_from L0 L k fc size off pad al in
    e - x - vbytes L cnts <= fst r - size /\
    (L <> [] -> tail_ok S0 b L = true -> align_up e S0 - x - vbytes L cnts <= snd r - size).
  Proof.
    intros k fc cnts st prev size off pad al x pp b Hwf Hple Hcf HI Hoff Hal HalS Hcg Hwv Hpp Hb Hpv Hlen.
    (* the index arithmetic is that of [esize_from_run]; the rest is an induction over the list *)
    cbv zeta. rewrite (esize_from_run L0 L k (prev :: trails_from L st)) by (auto; intros j Hj; apply Hpv; lia).
    clear k Hpv Hlen. fold S0.
    revert fc cnts st prev size off pad al x pp b Hwf Hple Hcf HI Hoff Hal HalS Hcg Hwv Hpp Hb.
    induction L as [|p L IH]; intros fc cnts st prev size off pad al x pp b Hwf Hple Hcf HI Hoff Hal HalS Hcg Hwv Hpp Hb.
    - cbn [place_from esize_run vbytes fst snd]. split; [lia|congruence].
    - destruct cnts as [|c cnts]; [contradiction|]. destruct Hcf as (Hc0 & Hc1 & Hcfx & Hcf).
      apply Forall_cons_iff in Hwf. destruct Hwf as [Hwp HwL].
      cbn [wf_varying] in Hwv. apply andb_true_iff in Hwv. destruct Hwv as [Hwv1 Hwv].
      assert (Hvoff : is_varying p = true -> 0 < off) by (intros Hv; rewrite Hv in Hwv1; auto).
      destruct (step_sound p st prev x c Hwp (conj Hc0 Hc1) HI) as [_ HI'].
      pose proof (Hple p (in_eq _ _)) as Hplep.
      pose proof (asz_step S0 HS p prev S0 off al (hd 0 fc) x c st Hwp Hplep (conj Hc0 Hc1)
                    Hcfx HI Hoff Hal HalS Hcg Hvoff) as Hstep.
      cbv zeta in Hstep.
      (* behind a plain / FixedSize parameter the bracket has only grown *)
      assert (Hnal : is_varying p = false -> snd (asz p prev S0 off al (hd 0 fc)) = Z.max al (pal p)).
      { intros Hv. rewrite (asz_nonvar p prev S0 off al (hd 0 fc) c Hv Hc1 Hcfx). reflexivity. }
      cbn [esize_run trails_from vbytes hd tl]. rewrite place_from_cons. cbn [snd].
      destruct (asz p prev S0 off al (hd 0 fc)) as [[[no nsz] npad] nal].
      cbn [fst snd] in Hstep, Hnal. destruct Hstep as (Hno & Hnal2 & HnalS & Hncg & Hsz & Hplain & Hvar & Hpad).
      destruct (tr_step p st) as [st' t]. cbn [fst snd] in HI'.
      set (xs := align_if (prev <? pal p) (pal p) x) in *. set (x' := xs + c * psz p) in *.
      assert (Hb' : (if is_varying p then false else b || (pal p =? S0)) = true -> nal = S0).
      { destruct (is_varying p); [discriminate|]. intros Hbb. rewrite (Hnal eq_refl). apply orb_true_iff in Hbb.
        destruct Hbb as [Hbt|Hps]; [rewrite (Hb Hbt); apply Z.max_l, Hplep|].
        apply Z.eqb_eq in Hps. rewrite Hps. apply Z.max_r, HalS. }
      destruct L as [|q L'].
      + (* last parameter *)
        cbn [esize_run place_from vbytes snd fst]. rewrite Z.add_0_r.
        split; [clear - Hsz; lia|]. intros _ Htl. cbn [tail_ok] in Htl.
        assert (Hcond : is_varying p = true \/ nal = S0).
        { destruct (is_varying p); [left; reflexivity|right; exact (Hb' Htl)]. }
        specialize (Hpad eq_refl Hcond). clear - Hsz Hpad. lia.
      + destruct (IH (tl fc) cnts st' t (size + nsz) no npad nal x' (is_plain p) _ HwL
                    (fun r Hr => Hple r (in_cons _ _ _ Hr)) Hcf HI' Hno Hnal2 HnalS Hncg Hwv Hplain Hb') as [IH1 IH2].
        cbv zeta in IH1, IH2. split; [clear - Hsz IH1; lia|]. intros _ Htl. specialize (IH2 ltac:(discriminate) Htl).
        clear - Hsz IH2. lia.
  Qed.
End Bound.

Lemma cnts_match_fit L : forall fc cnts, cnts_match L fc cnts -> cnts_fit L fc cnts.
Proof.
  induction L as [|p L IH]; intros fc [|c cnts] H; try contradiction; [exact I|].
  destruct H as (Hc & H0 & H). split; [exact H0|]. split; [intros Hk; rewrite Hk in Hc; exact Hc|].
  split; [intros Hk; rewrite Hk in Hc; exact Hc|apply IH, H].
Qed.

Lemma cnts_fit_cnt_ok L : forall fc cnts, cnts_fit L fc cnts -> Forall2 cnt_ok L cnts.
Proof.
  induction L as [|p L IH]; intros fc cnts H; destruct cnts as [|c cnts]; try contradiction; constructor.
  - destruct H as (H0 & H1 & _). split; auto.
  - destruct H as (_ & _ & _ & H). eapply IH; eauto.
Qed.

Lemma cnts_fit_nonneg L : forall fc cnts, cnts_fit L fc cnts -> Forall (fun c => 0 <= c) cnts.
Proof.
  induction L as [|p L IH]; intros fc cnts H; destruct cnts as [|c cnts]; try contradiction; constructor.
  - destruct H as (H0 & _). exact H0.
  - destruct H as (_ & _ & _ & H). eapply IH; eauto.
Qed.

(* ONE element stored at a storage-aligned address: it ends inside size + payload bytes,
   and (when the tail of the list is benign) the next element starts inside
   stride + payload bytes *)
Theorem element_bound L fixed cnts a :
  wf_plist L = true -> cnts_fit L (fixed_counts L fixed) cnts -> 0 <= a -> (SA L | a) ->
  let e := snd (place L cnts a) in
  e - a <= fst (esize L fixed) + vbytes L cnts /\
  (tail_ok (SA L) true L = true -> first_align L e - a <= snd (esize L fixed) + vbytes L cnts).
Proof.
  intros Hwf Hcf Ha HaS. cbv zeta.
  pose proof (wf_plist_Forall _ Hwf) as HF. pose proof (wf_plist_nonempty _ Hwf) as Hne.
  destruct (esize_from_bound L Hwf L 0%nat (fixed_counts L fixed) cnts (0, SA L) (SA L) 0 0 0 (SA L) a false true HF)
    as [H1 H2]; auto using SA_ge, SA_pow2, Inv_init, wf_plist_varying, Z.le_refl; try discriminate.
  - rewrite Z.sub_0_r. exact HaS.
  - cbv zeta in H1, H2. unfold esize, place, prevs, trails. split; [lia|].
    intros Htl. specialize (H2 Hne Htl).
    pose proof (first_align_end L cnts a Hwf (cnts_fit_cnt_ok _ _ _ Hcf) Ha HaS) as (_ & _ & E).
    cbv zeta in E. unfold place, prevs, trails in E. rewrite E. lia.
Qed.

(* emplace_back after emplace_back: [l] is the end of the previous element (0 for an empty
   vector); every element goes to first_align of that address *)
Fixpoint fill (L : list param) (cs : list (list Z)) (l : Z) : Z :=
  match cs with
  | [] => l
  | c :: r => fill L r (snd (place L c (first_align L l)))
  end.

Definition payload (L : list param) (cs : list (list Z)) : Z :=
  fold_right Z.add 0 (map (vbytes L) cs).

Lemma fill_bound L fixed : wf_plist L = true -> tail_ok (SA L) true L = true ->
  forall cs l a0, Forall (cnts_fit L (fixed_counts L fixed)) cs -> cs <> [] ->
  first_align L l = a0 -> 0 <= a0 -> (SA L | a0) ->
  fill L cs l <= a0 + snd (esize L fixed) * (Z.of_nat (length cs) - 1) + fst (esize L fixed) + payload L cs.
Proof.
  intros Hwf Htl. induction cs as [|c r IH]; intros l a0 Hcs Hne El Ha0 HaS; [congruence|].
  inversion Hcs as [|c' r' Hc Hr]; subst c' r'.
  cbn [fill]. rewrite El.
  destruct (element_bound L fixed c a0 Hwf Hc Ha0 HaS) as [H1 H2]. cbv zeta in H1, H2. specialize (H2 Htl).
  unfold payload. cbn [map fold_right]. fold (payload L r).
  set (l1 := snd (place L c a0)) in *.
  destruct r as [|c2 r].
  - cbn [fill length payload map fold_right]. lia.
  - pose proof (first_align_end L c a0 Hwf (cnts_fit_cnt_ok _ _ _ Hc) Ha0 HaS) as (Hd & Hge & _).
    cbv zeta in Hd, Hge. fold l1 in Hd, Hge.
    assert (Hl1 : a0 <= l1).
    { unfold l1, place. apply place_from_end_ge; [apply wf_plist_Forall; auto|eapply cnts_fit_nonneg; eauto]. }
    specialize (IH l1 (first_align L l1) Hr ltac:(discriminate) eq_refl ltac:(lia) Hd).
    set (s := snd (esize L fixed)) in *. set (z := fst (esize L fixed)) in *.
    change (length (c :: c2 :: r)) with (S (length (c2 :: r))). rewrite Nat2Z.inj_succ.
    set (m := Z.of_nat (length (c2 :: r))) in *. lia.
Qed.

(* C02, worst case formula: N elements whose varying payload adds up to at most B bytes
   end inside calculate_needed_memory_size(N, B, calculate_element_size(fixed)) bytes - for
   every well-formed list whose tail is benign ([tail_ok]) *)
Theorem needed_sufficient L fixed cs B :
  wf_plist L = true -> tail_ok (SA L) true L = true ->
  Forall (cnts_fit L (fixed_counts L fixed)) cs -> payload L cs <= B -> 0 <= B ->
  fill L cs 0 <= needed (Z.of_nat (length cs)) B (esize L fixed).
Proof.
  intros Hwf Htl Hcs HB HB0.
  destruct cs as [|c r].
  - cbn [fill length]. unfold needed. destruct (esize L fixed) as [z s]. cbn. lia.
  - pose proof (fill_bound L fixed Hwf Htl (c :: r) 0 0 Hcs ltac:(discriminate)) as H.
    rewrite (first_align_0 L Hwf) in H.
    specialize (H eq_refl ltac:(lia) (Z.divide_0_r _)).
    unfold needed. destruct (esize L fixed) as [z s]. cbn [fst snd] in *.
    replace (Z.of_nat (length (c :: r)) =? 0) with false by (symmetry; apply Z.eqb_neq; cbn [length]; lia).
    set (m := Z.of_nat (length (c :: r))) in *. lia.
Qed.

Lemma tail_ok_novar S0 L : forall b, existsb is_varying L = false -> b = true -> tail_ok S0 b L = true.
Proof.
  induction L as [|p L IH]; intros b Hnv Hb; [exact Hb|].
  cbn [existsb] in Hnv. apply orb_false_iff in Hnv. destruct Hnv as [Hp HL].
  cbn [tail_ok]. rewrite Hp, Hb. destruct L as [|q L']; [reflexivity|]. apply IH; auto.
Qed.

Lemma tail_ok_last_varying S0 L : forall b, L <> [] -> is_varying (last L {| pk := Plain; psz := 1; pal := 1; pty := TBlob |}) = true ->
  tail_ok S0 b L = true.
Proof.
  induction L as [|p L IH]; intros b Hne Hl; [congruence|].
  cbn [tail_ok]. destruct L as [|q L'].
  - cbn [last] in Hl. rewrite Hl. reflexivity.
  - apply IH; [discriminate|exact Hl].
Qed.

Lemma fill_ge L fixed : wf_plist L = true -> forall cs l,
  Forall (cnts_fit L (fixed_counts L fixed)) cs -> l <= fill L cs l.
Proof.
  intros Hwf. induction cs as [|c r IH]; intros l Hc; [apply Z.le_refl|].
  inversion Hc; subst. cbn [fill]. eapply Z.le_trans; [|apply IH; assumption].
  eapply Z.le_trans; [apply (first_align_ge L l Hwf)|].
  apply place_from_end_ge; [apply wf_plist_Forall; exact Hwf|eapply cnts_fit_nonneg; eauto].
Qed.

(* hence the elements end inside the block allocate_memory obtains for that many bytes *)
Theorem needed_sufficient_block L fixed cs B :
  wf_plist L = true -> tail_ok (SA L) true L = true ->
  Forall (cnts_fit L (fixed_counts L fixed)) cs -> payload L cs <= B -> 0 <= B ->
  0 <= fill L cs 0 <= SA L * units L (needed (Z.of_nat (length cs)) B (esize L fixed)).
Proof.
  intros Hwf Htl Hcs HB HB0.
  pose proof (needed_sufficient L fixed cs B Hwf Htl Hcs HB HB0) as H.
  pose proof (fill_ge L fixed Hwf cs 0 Hcs) as H0. split; [exact H0|].
  eapply Z.le_trans; [exact H|]. apply units_bounds, SA_pos, Hwf.
Qed.

(* the hypotheses are satisfiable: (uint32, VaryingSize<uint16>), three elements *)
Definition exL : list param :=
  [ {| pk := Plain; psz := 4; pal := 4; pty := TUInt |};
    {| pk := Varying; psz := 2; pal := 2; pty := TUInt |} ].
Example needed_sufficient_applies :
  wf_plist exL = true /\ tail_ok (SA exL) true exL = true /\
  Forall (cnts_fit exL (fixed_counts exL [])) [[1; 3]; [1; 0]; [1; 5]] /\
  payload exL [[1; 3]; [1; 0]; [1; 5]] = 16 /\
  fill exL [[1; 3]; [1; 0]; [1; 5]] 0 = 30 /\
  needed 3 16 (esize exL []) = 32.
Proof.
  repeat split; try reflexivity.
  repeat constructor; cbn; try lia; discriminate.
Qed.

(* the refutation witness of C02Thm lies outside: a 1-aligned plain field behind the span *)
Example f7L_tail_not_ok : tail_ok (SA f7L) true f7L = false.
Proof. reflexivity. Qed.
