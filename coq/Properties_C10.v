(* C10 — reserve only ever adds room and never changes contents. *)
From Coq Require Import ZArith List.
From Cntgs Require Import Layout Vector Spec Rep Refine NeededThm C02Hist NtRefine.
Import ListNotations.
Local Open Scope Z_scope.

(* reserve(n, b) keeps the represented list of tuples (hence size() and every stored
   value), the fixed sizes, and makes capacity() = max(capacity(), n); for every list of
   trivially relocatable types, every state and every junk content of the new block *)
Theorem C10_reserve_keeps_contents : forall L,
  wf_plist L = true -> all_triv L = true -> forall v l n b junk bid tbid, Rep L v l ->
  Rep L (fst (reserve L v n b junk bid tbid)) l /\
  v_cap (fst (reserve L v n b junk bid tbid)) = Z.max (v_cap v) n /\
  v_fixed (fst (reserve L v n b junk bid tbid)) = v_fixed v.
Proof. exact reserve_rep. Qed.
Print Assumptions C10_reserve_keeps_contents.

Theorem C10_reserve_within_capacity_is_noop : forall L v n b junk bid tbid,
  n <= v_cap v -> reserve L v n b junk bid tbid = (v, []).
Proof. exact reserve_noop. Qed.
Print Assumptions C10_reserve_within_capacity_is_noop.

(* the promise: after reserve(n, b) with n > capacity(), n elements / b bytes of varying
   payload fit.  One step of the history invariant: a growing reserve re-establishes
   "needed(capacity, budget) <= block" for the new capacity and budget b *)
Theorem C10_reserve_reestablishes_the_budget : forall L, wf_plist L = true -> all_triv L = true ->
  tail_ok (SA L) true L = true -> forall junk v s B n b, BInv L v s B ->
  0 <= b -> (s_cap s < n -> tpayload L (s_elems s) <= b) ->
  BInv L (vstep L junk v (SReserve n b)) (sstep s (SReserve n b)) (if s_cap s <? n then b else B).
Proof.
  intros L Hwf Ht Htl junk v s B n b HI Hb Hp.
  exact (binv_step L Hwf Ht Htl junk v s B (SReserve n b) HI I (conj Hb Hp)).
Qed.
Print Assumptions C10_reserve_reestablishes_the_budget.

(* whatever valid history follows a reserve (emplace_back up to the new capacity and the new
   budget included) keeps every element inside the block *)
Theorem C10_after_reserve_everything_fits : forall L cap budget fixed aid junk bid tbid h,
  wf_plist L = true -> all_triv L = true -> tail_ok (SA L) true L = true ->
  0 <= cap -> 0 <= budget -> Forall (fun c => 0 <= c) fixed ->
  let v0 := fst (mkvec L cap budget fixed aid junk bid tbid) in
  let s0 := {| s_cap := cap; s_elems := [] |} in
  shist_valid L (fixed_counts L fixed) s0 h -> bhist_valid L s0 budget h ->
  let v := vrun L junk v0 h in
  let l := s_elems (srun s0 h) in
  exists offs, RepO L v l offs /\
    Forall2 (fun a t => 0 <= a /\ elem_end L a t <= SA L * v_units v) offs l.
Proof. exact every_element_inside_block_every_history. Qed.
Print Assumptions C10_after_reserve_everything_fits.

(* the same for every well-formed list with a benign tail, non-trivial value types included *)
Theorem C10_after_reserve_everything_fits_every_list : forall L cap budget fixed aid junk bid tbid h,
  wf_plist L = true -> tail_ok (SA L) true L = true ->
  0 <= cap -> 0 <= budget -> Forall (fun c => 0 <= c) fixed ->
  let v0 := fst (mkvec L cap budget fixed aid junk bid tbid) in
  let s0 := {| s_cap := cap; s_elems := [] |} in
  shist_valid L (fixed_counts L fixed) s0 h -> bhist_valid L s0 budget h -> nt_hist_okx L s0 h ->
  let v := vrun L junk v0 h in
  let l := s_elems (srun s0 h) in
  exists offs, RepO L v l offs /\
    Forall2 (fun a t => 0 <= a /\ elem_end L a t <= SA L * v_units v) offs l.
Proof. exact every_element_inside_block_every_history_ntx. Qed.
Print Assumptions C10_after_reserve_everything_fits_every_list.
