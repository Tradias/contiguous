(* TightThm.v — tight packing at history level (C05): in every represented state, hence
   after every valid history (C01), every element starts exactly where
   align_for_first_parameter puts it after the end of its predecessor - the first one at the
   start of the block - and data_end() is the end of the last element or the aligned
   address behind it. *)
From Coq Require Import ZArith Lia List.
From Cntgs Require Import Layout Vector Spec Rep Ordered Refine.
Import ListNotations.
Local Open Scope Z_scope.

(* the end of the element in front of element [i]; element [i] starts at the aligned address
   behind it *)
Definition prev_end (L : list param) (v : vec) (l : list tuple) (i : nat) : Z :=
  match i with
  | O => 0
  | S k => elem_end L (eaddr L v (Z.of_nat k)) (nth k l [])
  end.

Theorem rep_positions_tight L v l : wf_plist L = true -> Rep L v l ->
  (forall i, (i < length l)%nat -> eaddr L v (Z.of_nat i) = first_align L (prev_end L v l i)) /\
  (dend L v = prev_end L v l (length l) \/ dend L v = first_align L (prev_end L v l (length l))).
Proof.
  intros Hwf [offs R].
  pose proof (r_tight _ _ _ _ R) as HT. pose proof (et_length _ _ _ _ _ HT) as Hlen.
  assert (Hpe : forall i, (i <= length l)%nat -> prev_end L v l i = eo_end L 0 (firstn i offs) (firstn i l)).
  { intros [|k] Hk; [reflexivity|]. unfold prev_end.
    rewrite (rep_addr L v l offs k R) by lia.
    rewrite eo_end_firstn_S by lia. reflexivity. }
  split.
  - intros i Hi. rewrite (rep_addr L v l offs i R Hi). rewrite Hpe by lia.
    eapply et_nth; [exact HT|lia].
  - rewrite Hpe, firstn_all, (firstn_all2 offs) by lia.
    exact (et_hi L _ _ _ _ HT).
Qed.

Theorem rep_every_history : forall L cap budget fixed aid junk bid tbid h,
  wf_plist L = true -> all_triv L = true -> 0 <= cap -> Forall (fun c => 0 <= c) fixed ->
  let v0 := fst (mkvec L cap budget fixed aid junk bid tbid) in
  let s0 := {| s_cap := cap; s_elems := [] |} in
  shist_valid L (fixed_counts L fixed) s0 h ->
  Rep L (vrun L junk v0 h) (s_elems (srun s0 h)).
Proof.
  intros L cap budget fixed aid junk bid tbid h Hwf Ht Hcap Hfx. cbv zeta. intros Hv.
  exact (proj1 (rep_from_construction L cap budget fixed aid junk bid tbid h Hwf Ht Hcap Hfx Hv)).
Qed.

Theorem tight_every_history : forall L cap budget fixed aid junk bid tbid h,
  wf_plist L = true -> all_triv L = true -> 0 <= cap -> Forall (fun c => 0 <= c) fixed ->
  let v0 := fst (mkvec L cap budget fixed aid junk bid tbid) in
  let s0 := {| s_cap := cap; s_elems := [] |} in
  shist_valid L (fixed_counts L fixed) s0 h ->
  let v := vrun L junk v0 h in
  let l := s_elems (srun s0 h) in
  (forall i, (i < length l)%nat -> eaddr L v (Z.of_nat i) = first_align L (prev_end L v l i)) /\
  (dend L v = prev_end L v l (length l) \/ dend L v = first_align L (prev_end L v l (length l))).
Proof.
  intros L cap budget fixed aid junk bid tbid h Hwf Ht Hcap Hfx. cbv zeta. intros Hv.
  apply rep_positions_tight; auto. apply rep_every_history; auto.
Qed.
