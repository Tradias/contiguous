(* StableThm.v — what the operations of one vector leave alone.
   Every operation except a growing reserve neither calls the allocator nor changes the block,
   the capacity, the fixed sizes or the stride ([quiet]): this holds for every parameter list and
   every state, with no hypothesis, and is proved once per event producer of Vector.v.  From it
   come the no-hidden-reallocation theorems (C16), the frames of the allocation ledger (C07) and
   the capacity / stride clauses of the history invariants.  Then: stable addresses (C16) and
   empty vectors (C18). *)
From Coq Require Import ZArith Lia List Bool.
From Cntgs Require Import ListAux Layout LayoutThm Mem Vector World Spec Rep.
Import ListNotations.
Local Open Scope Z_scope.

Definition is_alloc_ev (e : ev) : bool :=
  match e with EAlloc _ _ _ _ | EDealloc _ _ _ _ => true | _ => false end.
Definition no_alloc (evs : list ev) : Prop := forallb (fun e => negb (is_alloc_ev e)) evs = true.

Lemma no_alloc_app a b : no_alloc a -> no_alloc b -> no_alloc (a ++ b).
Proof. unfold no_alloc. intros Ha Hb. rewrite forallb_app, Ha, Hb. reflexivity. Qed.

Lemma no_alloc_obj_events mk a sz n : (forall x, is_alloc_ev (mk x) = false) -> no_alloc (obj_events mk a sz n).
Proof.
  intros H. unfold no_alloc, obj_events. rewrite forallb_forall. intros e He.
  apply in_map_iff in He. destruct He as [j [<- _]]. now rewrite H.
Qed.

(* the part of the record that only reserve and the special members change *)
Definition same_shape (v v' : vec) : Prop :=
  v_cap v' = v_cap v /\ v_bid v' = v_bid v /\ v_units v' = v_units v /\ v_aid v' = v_aid v /\
  v_fixed v' = v_fixed v /\ v_stride v' = v_stride v /\
  t_bid (v_tbl v') = t_bid (v_tbl v) /\ t_cap (v_tbl v') = t_cap (v_tbl v).

Lemma same_shape_refl v : same_shape v v.
Proof. repeat split. Qed.
Lemma same_shape_trans a b c : same_shape a b -> same_shape b c -> same_shape a c.
Proof. unfold same_shape. intuition congruence. Qed.

Definition quiet (v : vec) (r : vec * list ev) : Prop := no_alloc (snd r) /\ same_shape v (fst r).

Lemma quiet_ret v : quiet v (v, []).
Proof. split; [reflexivity|apply same_shape_refl]. Qed.
Lemma quiet_seq v r1 r2 : quiet v r1 -> quiet (fst r1) r2 -> quiet v (fst r2, snd r1 ++ snd r2).
Proof. intros [A1 S1] [A2 S2]. split; [apply no_alloc_app; assumption|eapply same_shape_trans; eassumption]. Qed.

Lemma set_mem_id v : set_mem v (v_mem v) = v.
Proof. destruct v; reflexivity. Qed.

Lemma store_from_no_alloc L : forall pv vals bid m a, no_alloc (snd (fst (store_from L pv vals bid m a))).
Proof.
  induction L as [|p L IH]; intros pv vals bid m a; [reflexivity|].
  destruct pv as [|pt pv]; [reflexivity|]. destruct vals as [|f vals]; [reflexivity|].
  cbn [store_from]. specialize (IH pv vals bid (mwrite m (align_if (pt <? pal p) (pal p) a) (concat f))
                                   (align_if (pt <? pal p) (pal p) a + Z.of_nat (length f) * psz p)).
  destruct (store_from L pv vals bid _ _) as [[m2 evs2] e].
  apply no_alloc_app; auto. destruct (ntc _ p); [|reflexivity]. apply no_alloc_obj_events. reflexivity.
Qed.

Lemma destruct_fields_no_alloc L : forall fl bid m, no_alloc (snd (destruct_fields L fl bid m)).
Proof.
  induction L as [|p L IH]; intros fl bid m; [reflexivity|].
  destruct fl as [|[a c] fl]; [reflexivity|]. cbn [destruct_fields].
  specialize (IH fl bid (if ntd p then scribble m a (psz p) (Z.to_nat c) (dead_bytes (psz p)) else m)).
  destruct (destruct_fields L fl bid _) as [m2 evs2].
  apply no_alloc_app; auto. destruct (ntd p); [|reflexivity]. apply no_alloc_obj_events. reflexivity.
Qed.

Lemma move_objs_no_alloc p bid : forall n m src dst, no_alloc (snd (move_objs p bid m src dst n)).
Proof.
  induction n as [|n IH]; intros m src dst; [reflexivity|]. cbn [move_objs].
  match goal with |- context [move_objs p bid ?m' ?s ?d n] => specialize (IH m' s d); destruct (move_objs p bid m' s d n) as [m3 evs] end.
  apply no_alloc_app; auto. destruct (ntc true p); reflexivity.
Qed.

Lemma move_fields_no_alloc L : forall pv fl bid m a, no_alloc (snd (fst (move_fields L pv fl bid m a))).
Proof.
  induction L as [|p L IH]; intros pv fl bid m a; [reflexivity|].
  destruct pv as [|pt pv]; [reflexivity|]. destruct fl as [|[sa c] fl]; [reflexivity|]. cbn [move_fields].
  pose proof (move_objs_no_alloc p bid (Z.to_nat c) m sa (align_if (pt <? pal p) (pal p) a)) as H1.
  destruct (move_objs p bid m sa _ _) as [m1 e1].
  specialize (IH pv fl bid m1 (align_if (pt <? pal p) (pal p) a + c * psz p)).
  destruct (move_fields L pv fl bid m1 _) as [[m2 e2] e]. apply no_alloc_app; auto.
Qed.

Lemma relocate_objs_no_alloc mv p sbid bid : forall n ms m src dst, no_alloc (snd (relocate_objs mv p sbid bid ms m src dst n)).
Proof.
  induction n as [|n IH]; intros ms m src dst; [reflexivity|]. cbn [relocate_objs].
  match goal with |- context [relocate_objs mv p sbid bid ?a ?b ?s ?d n] =>
    specialize (IH a b s d); destruct (relocate_objs mv p sbid bid a b s d n) as [[ms2 m2] evs] end.
  destruct mv; exact IH.
Qed.

Lemma relocate_fields_no_alloc mv sbid bid L : forall fl ms m d, no_alloc (snd (relocate_fields mv L fl sbid bid ms m d)).
Proof.
  induction L as [|p L IH]; intros fl ms m d; [reflexivity|]. destruct fl as [|[a c] fl]; [reflexivity|].
  cbn [relocate_fields].
  assert (H1 : no_alloc (snd (if ntc mv p then relocate_objs mv p sbid bid ms m a (a + d) (Z.to_nat c) else (ms, m, [])))).
  { destruct (ntc mv p); [apply relocate_objs_no_alloc|reflexivity]. }
  destruct (if ntc mv p then _ else _) as [[ms1 m1] e1]. specialize (IH fl ms1 m1 d).
  destruct (relocate_fields mv L fl sbid bid ms1 m1 d) as [[ms2 m2] e2]. apply no_alloc_app; auto.
Qed.

Lemma destruct_elem_frame L v i :
  no_alloc (snd (destruct_elem L v i)) /\ exists m, fst (destruct_elem L v i) = set_mem v m.
Proof.
  unfold destruct_elem. destruct (all_dtriv L); [split; [reflexivity|exists (v_mem v); symmetry; apply set_mem_id]|].
  pose proof (destruct_fields_no_alloc L (fst (load L (v_fixed v) (v_mem v) (eaddr L v i))) (bidn (v_bid v)) (v_mem v)) as H.
  destruct (destruct_fields L _ _ _) as [m evs]. cbn [fst snd] in *. eauto.
Qed.

Lemma destruct_range_frame L : forall n v i,
  no_alloc (snd (destruct_range L v i n)) /\ exists m, fst (destruct_range L v i n) = set_mem v m.
Proof.
  induction n as [|n IH]; intros v i; [split; [reflexivity|exists (v_mem v); symmetry; apply set_mem_id]|].
  cbn [destruct_range]. destruct (destruct_elem_frame L v i) as [A1 [m1 E1]].
  destruct (destruct_elem L v i) as [v1 e1]. cbn [fst snd] in *. subst v1.
  destruct (IH (set_mem v m1) (i + 1)) as [A2 [m2 E2]].
  destruct (destruct_range L (set_mem v m1) (i + 1) n) as [v2 e2].
  split; [apply no_alloc_app; assumption|exists m2; exact E2].
Qed.

Lemma same_shape_set_mem v m : same_shape v (set_mem v m).
Proof. repeat split. Qed.

Lemma destruct_elem_quiet L v i : quiet v (destruct_elem L v i).
Proof. destruct (destruct_elem_frame L v i) as [A [m E]]. split; [exact A|rewrite E; apply same_shape_set_mem]. Qed.
Lemma destruct_range_quiet L n v i : quiet v (destruct_range L v i n).
Proof. destruct (destruct_range_frame L n v i) as [A [m E]]. split; [exact A|rewrite E; apply same_shape_set_mem]. Qed.

(* the `if all_dtriv L then (v, []) else destruct_range ...` of erase_range, clear and the special members *)
Lemma destruct_opt_quiet L (c : bool) n v i : quiet v (if c then (v, []) else destruct_range L v i n).
Proof. destruct c; [apply quiet_ret|apply destruct_range_quiet]. Qed.

Lemma resize_shape L v n : same_shape v (resize L v n).
Proof. unfold resize. destruct (has_varying L); [destruct (_ <? _)|]; repeat split. Qed.

Lemma quiet_resize L v v1 e n : quiet v (v1, e) -> quiet v (resize L v1 n, e).
Proof. intros [A S]. split; [exact A|eapply same_shape_trans; [exact S|apply resize_shape]]. Qed.

Lemma emplace_back_quiet L v t : quiet v (emplace_back L v t).
Proof.
  unfold emplace_back, store. destruct (has_varying L).
  - pose proof (store_from_no_alloc L (prevs L) t (bidn (v_bid v)) (v_mem v) (first_align L (v_last v))) as H.
    destruct (store_from L _ _ _ _ _) as [[m evs] e]. split; [exact H|repeat split].
  - pose proof (store_from_no_alloc L (prevs L) t (bidn (v_bid v)) (v_mem v) (v_stride v * v_count v)) as H.
    destruct (store_from L _ _ _ _ _) as [[m evs] e]. split; [exact H|repeat split].
Qed.

Lemma move_one_nt_quiet L v from i : quiet v (move_one_nt L v from i).
Proof.
  unfold move_one_nt.
  pose proof (move_fields_no_alloc L (prevs L) (fst (load L (v_fixed v) (v_mem v) (eaddr L v from))) (bidn (v_bid v)) (v_mem v)
                (if has_varying L then first_align L (slotv v i) else v_stride v * i)) as H1.
  destruct (move_fields L _ _ _ _ _) as [[m1 e1] e].
  pose proof (destruct_fields_no_alloc L (fst (load L (v_fixed v) (v_mem v) (eaddr L v from))) (bidn (v_bid v)) m1) as H2.
  destruct (destruct_fields L _ _ m1) as [m2 e2].
  split; [apply no_alloc_app; assumption|destruct (has_varying L); repeat split].
Qed.

Lemma move_forward_nt_quiet L : forall n v from i, quiet v (move_forward_nt L v from i n).
Proof.
  induction n as [|n IH]; intros v from i; [apply quiet_ret|]. cbn [move_forward_nt].
  pose proof (move_one_nt_quiet L v from i) as H1. destruct (move_one_nt L v from i) as [v1 e1].
  specialize (IH v1 (from + 1) (i + 1)). destruct (move_forward_nt L v1 (from + 1) (i + 1) n) as [v2 e2].
  exact (quiet_seq v (v1, e1) (v2, e2) H1 IH).
Qed.

Lemma move_forward_quiet L v from to : quiet v (move_forward L v from to).
Proof.
  unfold move_forward. destruct (all_triv L); [|apply move_forward_nt_quiet].
  unfold move_forward_triv. destruct (has_varying L && _); [apply quiet_ret|].
  destruct (has_varying L); (split; [reflexivity|repeat split]).
Qed.

Lemma pop_back_quiet L v : quiet v (pop_back L v).
Proof.
  unfold pop_back. pose proof (destruct_elem_quiet L v (vsize L v - 1)) as H.
  destruct (destruct_elem L v (vsize L v - 1)) as [v1 e1]. apply quiet_resize. exact H.
Qed.

Lemma erase_quiet L v i : quiet v (erase L v i).
Proof.
  unfold erase. pose proof (destruct_elem_quiet L v i) as H1. destruct (destruct_elem L v i) as [v1 e1].
  pose proof (move_forward_quiet L v1 (i + 1) i) as H2. destruct (move_forward L v1 (i + 1) i) as [v2 e2].
  apply quiet_resize. exact (quiet_seq v (v1, e1) (v2, e2) H1 H2).
Qed.

Lemma erase_range_quiet L v i j : quiet v (erase_range L v i j).
Proof.
  unfold erase_range. pose proof (destruct_opt_quiet L (all_dtriv L) (Z.to_nat (j - i)) v i) as H1.
  destruct (if all_dtriv L then _ else _) as [v1 e1].
  assert (H2 : quiet v1 (if (j <? vsize L v) && negb (i =? j) then move_forward L v1 j i else (v1, []))).
  { destruct (_ && _); [apply move_forward_quiet|apply quiet_ret]. }
  destruct (if (j <? vsize L v) && negb (i =? j) then _ else _) as [v2 e2].
  apply quiet_resize. exact (quiet_seq v (v1, e1) (v2, e2) H1 H2).
Qed.

Lemma clear_quiet L v : quiet v (clear L v).
Proof.
  unfold clear. pose proof (destruct_opt_quiet L (all_dtriv L) (Z.to_nat (vsize L v)) v 0) as H.
  destruct (if all_dtriv L then _ else _) as [v1 e1]. apply quiet_resize. exact H.
Qed.

Lemma relocate_elems_frame mv L bid : forall n src m i,
  no_alloc (snd (relocate_elems mv L src bid m i n)) /\
  exists ms, fst (fst (relocate_elems mv L src bid m i n)) = set_mem src ms.
Proof.
  induction n as [|n IH]; intros src m i; [split; [reflexivity|exists (v_mem src); symmetry; apply set_mem_id]|].
  cbn [relocate_elems].
  pose proof (relocate_fields_no_alloc mv (bidn (v_bid src)) bid L
                (fst (load L (v_fixed src) (v_mem src) (eaddr L src i))) (v_mem src) m 0) as H1.
  destruct (relocate_fields mv L _ _ _ _ _ _) as [[ms1 m1] e1].
  destruct (IH (set_mem src ms1) m1 (i + 1)) as [H2 [ms2 E2]].
  destruct (relocate_elems mv L (set_mem src ms1) bid m1 (i + 1) n) as [[s2 m2] e2].
  split; [apply no_alloc_app; assumption|exists ms2; exact E2].
Qed.

Lemma insert_into_frame mv destr L v bid junk :
  no_alloc (snd (insert_into mv destr L v bid junk)) /\
  exists ms, fst (fst (insert_into mv destr L v bid junk)) = set_mem v ms.
Proof.
  assert (Hid : exists ms, v = set_mem v ms) by (exists (v_mem v); symmetry; apply set_mem_id).
  unfold insert_into. destruct (all_ctriv mv L && _); [split; [reflexivity|exact Hid]|].
  assert (H1 : let r := if all_ctriv mv L then (v, mcopy (v_mem v) 0 junk 0 (dend L v), [])
                        else relocate_elems mv L v bid (mcopy (v_mem v) 0 junk 0 (dend L v)) 0 (Z.to_nat (vsize L v)) in
               no_alloc (snd r) /\ exists ms, fst (fst r) = set_mem v ms).
  { destruct (all_ctriv mv L); [split; [reflexivity|exact Hid]|apply relocate_elems_frame]. }
  destruct (if all_ctriv mv L then _ else _) as [[src1 m1] e1]. cbn [fst snd] in H1.
  destruct H1 as [A1 [ms1 ->]].
  assert (H2 : let r := if destr && negb (all_dtriv L)
                        then destruct_range L (set_mem v ms1) 0 (Z.to_nat (vsize L (set_mem v ms1))) else (set_mem v ms1, []) in
               no_alloc (snd r) /\ exists ms, fst r = set_mem v ms).
  { destruct (destr && _); [|split; [reflexivity|exists ms1; reflexivity]].
    destruct (destruct_range_frame L (Z.to_nat (vsize L (set_mem v ms1))) (set_mem v ms1) 0) as [A [m E]].
    split; [exact A|exists m; rewrite E; reflexivity]. }
  destruct (if destr && _ then _ else _) as [src2 e2]. cbn [fst snd] in *.
  destruct H2 as [A2 E2]. split; [|exact E2]. apply (no_alloc_app [_]); [reflexivity|apply no_alloc_app; assumption].
Qed.

Theorem vstep_shape L junk v o : (forall n b, o <> SReserve n b) -> same_shape v (vstep L junk v o).
Proof.
  intros Hn. destruct o as [t| |i|i j| |n b]; cbn [vstep].
  - apply emplace_back_quiet.
  - apply pop_back_quiet.
  - apply erase_quiet.
  - apply erase_range_quiet.
  - apply clear_quiet.
  - exfalso. eapply Hn. reflexivity.
Qed.

Theorem vstep_cap_fixed L junk v o :
  v_fixed (vstep L junk v o) = v_fixed v /\
  v_cap (vstep L junk v o) = match o with SReserve n _ => Z.max (v_cap v) n | _ => v_cap v end.
Proof.
  destruct o as [t| |i|i j| |n b];
    try (match goal with |- context [vstep L junk v ?o] =>
           destruct (vstep_shape L junk v o ltac:(discriminate)) as (H1 & _ & _ & _ & H2 & _) end; split; assumption).
  cbn [vstep]. unfold reserve. destruct (Z.ltb_spec (v_cap v) n); [|split; [reflexivity|cbn [fst]; lia]].
  destruct (insert_into true true L v 0 junk) as [[v1 m] e1]. split; [reflexivity|cbn [fst v_cap]; lia].
Qed.

Theorem vstep_stride_units L junk v o :
  v_stride (vstep L junk v o) = v_stride v /\
  v_units (vstep L junk v o) =
    match o with
    | SReserve n b =>
        if v_cap v <? n then
          units L (if has_varying L then needed n b (esize L (v_fixed v)) else needed_grow_fixed n b (v_stride v))
        else v_units v
    | _ => v_units v
    end.
Proof.
  destruct o as [t| |i|i j| |n b];
    try (match goal with |- context [vstep L junk v ?o] =>
           destruct (vstep_shape L junk v o ltac:(discriminate)) as (_ & _ & H1 & _ & _ & H2 & _) end; split; assumption).
  cbn [vstep]. unfold reserve. destruct (v_cap v <? n); [|split; reflexivity].
  destruct (insert_into true true L v 0 junk) as [[v1 m] e1]. split; reflexivity.
Qed.

(* C16: no hidden reallocation, every list *)
Theorem emplace_back_no_alloc L v t :
  no_alloc (snd (emplace_back L v t)) /\ v_bid (fst (emplace_back L v t)) = v_bid v /\
  v_cap (fst (emplace_back L v t)) = v_cap v.
Proof. destruct (emplace_back_quiet L v t) as (A & C & B & _). auto. Qed.

Theorem pop_back_no_alloc L v :
  no_alloc (snd (pop_back L v)) /\ v_bid (fst (pop_back L v)) = v_bid v.
Proof. destruct (pop_back_quiet L v) as (A & _ & B & _). auto. Qed.

Theorem clear_no_alloc L v :
  no_alloc (snd (clear L v)) /\ v_bid (fst (clear L v)) = v_bid v.
Proof. destruct (clear_quiet L v) as (A & _ & B & _). auto. Qed.

Theorem erase_no_alloc L v i :
  no_alloc (snd (erase L v i)) /\ v_bid (fst (erase L v i)) = v_bid v.
Proof. destruct (erase_quiet L v i) as (A & _ & B & _). auto. Qed.

Theorem erase_range_no_alloc L v i j :
  no_alloc (snd (erase_range L v i j)) /\ v_bid (fst (erase_range L v i j)) = v_bid v.
Proof. destruct (erase_range_quiet L v i j) as (A & _ & B & _). auto. Qed.

(* C16: the elements in front keep their addresses *)
Theorem emplace_back_addresses_stable L v t i : 0 <= i < vsize L v ->
  eaddr L (fst (emplace_back L v t)) i = eaddr L v i.
Proof.
  intros Hi. unfold emplace_back, eaddr, vsize in *. destruct (has_varying L).
  - destruct (store L t _ _ _) as [[m evs] e]. cbn [fst]. unfold slotv, slot.
    cbn [v_tbl set_tbl set_mem set_slots t_slots]. rewrite upd_nth_other by lia. reflexivity.
  - destruct (store L t _ _ _) as [[m evs] e]. reflexivity.
Qed.

Lemma resize_addresses_stable L v n i : eaddr L (resize L v n) i = eaddr L v i.
Proof. unfold resize, eaddr. destruct (has_varying L); [destruct (_ <? _)|]; reflexivity. Qed.

Theorem pop_back_addresses_stable L v i : eaddr L (fst (pop_back L v)) i = eaddr L v i.
Proof.
  unfold pop_back. destruct (destruct_elem_frame L v (vsize L v - 1)) as [_ [m E]].
  destruct (destruct_elem L v (vsize L v - 1)) as [v1 e1]. cbn [fst] in *. subst v1.
  exact (resize_addresses_stable L (set_mem v m) _ i).
Qed.

(* the memmove of erase(position) / erase(first,last) on trivially relocatable lists: the
   elements in front of the erased position stay where they are (their table slots / stride
   offsets are not touched) *)
Theorem move_forward_addresses_stable L v from to i :
  0 <= i < to -> to <= from -> (Z.to_nat to <= length (t_slots (v_tbl v)))%nat \/ has_varying L = false ->
  eaddr L (fst (move_forward_triv L v from to)) i = eaddr L v i.
Proof.
  intros Hi Htf Hlen. unfold move_forward_triv. destruct (has_varying L && _); [reflexivity|].
  unfold eaddr. destruct (has_varying L) eqn:Hv; [|reflexivity].
  cbn [fst]. unfold slotv, slot. cbn [v_tbl set_tbl set_mem set_slots t_slots].
  destruct Hlen as [Hlen|Hlen]; [|discriminate].
  rewrite upd_nth_other by lia. unfold shift_slots.
  rewrite app_nth1 by (rewrite firstn_length; lia).
  rewrite nth_firstn_ by lia. reflexivity.
Qed.

(* C16: swap and move construction exchange ownership without any allocator call: in the
   model they are exchanges of records and emit no event at all *)
Theorem swap_exchanges_blocks K a b :
  v_bid (fst (swap_vec K a b)) = v_bid b /\ v_bid (snd (swap_vec K a b)) = v_bid a /\
  v_cap (fst (swap_vec K a b)) = v_cap b /\ v_cap (snd (swap_vec K a b)) = v_cap a.
Proof. cbn. auto. Qed.

(* C18, empty vectors: element 0 starts at offset 0 and an empty vector has
   data_end() = data_begin() *)
Definition zero_inv (L : list param) (v : vec) : Prop :=
  (0 < vsize L v -> eaddr L v 0 = 0) /\ (vsize L v = 0 -> dend L v = 0).

Lemma zero_inv_mkvec L cap budget fixed aid junk bid tbid :
  zero_inv L (fst (mkvec L cap budget fixed aid junk bid tbid)).
Proof.
  unfold zero_inv, mkvec, vsize, eaddr, dend. cbn [fst v_tbl v_count v_last v_stride t_size].
  destruct (has_varying L); cbn [t_size]; split; intros; lia.
Qed.

Lemma zero_inv_emplace L v t : wf_plist L = true -> 0 <= vsize L v ->
  (has_varying L = true -> (Z.to_nat (t_size (v_tbl v)) < length (t_slots (v_tbl v)))%nat) ->
  zero_inv L v -> zero_inv L (fst (emplace_back L v t)).
Proof.
  intros Hwf Hs0 Hlen [H1 H2]. unfold zero_inv, emplace_back, vsize, eaddr, dend in *.
  destruct (has_varying L).
  - destruct (store L t _ _ _) as [[m evs] e]. cbn [fst v_tbl set_tbl set_mem set_slots t_size t_slots v_last].
    split; [|intros; lia]. intros _. unfold slotv, slot in *. cbn [v_tbl set_tbl set_mem set_slots t_slots].
    destruct (Z.eq_dec (t_size (v_tbl v)) 0) as [E0|Ene].
    + rewrite E0. rewrite upd_nth_same by (specialize (Hlen eq_refl); rewrite E0 in Hlen; exact Hlen).
      rewrite (H2 E0). exact (first_align_0 L Hwf).
    + rewrite upd_nth_other by lia. apply H1. lia.
  - destruct (store L t _ _ _) as [[m evs] e]. cbn [fst v_count v_stride set_count set_mem].
    split; intros; lia.
Qed.

Lemma zero_inv_resize L v n : 0 <= n -> zero_inv L v -> zero_inv L (resize L v n).
Proof.
  intros Hn [H1 H2]. unfold zero_inv, resize, vsize, eaddr, dend in *.
  destruct (has_varying L).
  - destruct (Z.ltb_spec n (t_size (v_tbl v))) as [Hlt|Hge]; [|split; auto].
    cbn [v_tbl set_tbl set_slots t_size v_last]. unfold slotv, slot in *. cbn [v_tbl set_tbl set_slots t_slots].
    split; [intros; apply H1; lia|]. intros ->. apply H1. lia.
  - cbn [v_count v_stride set_count]. split; intros; lia.
Qed.

(* clear keeps the invariant, and an emptied vector has
   size() = 0, begin() = end(), data_begin() = data_end() = start of the block (every list) *)
Theorem clear_empty L v : 0 <= vsize L v -> zero_inv L v ->
  let v' := fst (clear L v) in
  vsize L v' = 0 /\ dend L v' = 0 /\ zero_inv L v'.
Proof.
  intros Hs Hz. unfold clear.
  (* destroying the elements changes bytes only *)
  assert (E : exists m, fst (if all_dtriv L then (v, []) else destruct_range L v 0 (Z.to_nat (vsize L v))) = set_mem v m).
  { destruct (all_dtriv L); [exists (v_mem v); symmetry; apply set_mem_id|apply destruct_range_frame]. }
  destruct (if all_dtriv L then _ else _) as [v1 e1]. destruct E as [m E]. cbn [fst] in *. subst v1.
  pose proof (zero_inv_resize L (set_mem v m) 0 ltac:(lia) Hz) as Hz'.
  assert (Hsz : vsize L (resize L (set_mem v m) 0) = 0).
  { unfold resize, vsize in *. destruct (has_varying L); [|reflexivity].
    destruct (Z.ltb_spec 0 (t_size (v_tbl (set_mem v m)))); cbn [v_tbl set_tbl set_mem set_slots t_size] in *; lia. }
  split; [exact Hsz|]. split; [apply Hz'; exact Hsz|exact Hz'].
Qed.

(* a default-constructed vector: no memory, size 0, nothing to free, clear() keeps it empty *)
Theorem default_vector_empty L :
  vsize L (vec_default L) = 0 /\ v_bid (vec_default L) = None /\ dend L (vec_default L) = 0 /\
  destroy L (vec_default L) = [] /\ vsize L (fst (clear L (vec_default L))) = 0.
Proof.
  unfold vsize, dend, destroy, dealloc_tbl, dealloc_mem, clear, resize, vsize.
  destruct (has_varying L); destruct (all_dtriv L);
    cbn [vec_default v_tbl v_count v_bid v_last v_stride tbl0 t_size t_bid Z.to_nat destruct_range fst snd app set_count];
    repeat split; try reflexivity; try lia.
Qed.

(* the moved-from state: no memory, size 0, destruction frees nothing *)
Theorem moved_from_empty L v :
  vsize L (moved_from v) = 0 /\ v_bid (moved_from v) = None /\ destroy L (moved_from v) = [].
Proof.
  unfold vsize, destroy, dealloc_tbl, dealloc_mem, moved_from.
  destruct (has_varying L); cbn; repeat split; reflexivity.
Qed.
