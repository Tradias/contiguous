(* NtRefine.v — the refinement for parameter lists with NON-trivial value types (C01, C06):
   emplace_back, pop_back, clear, erase(first, end()) and reserve preserve the representation
   invariant for EVERY well-formed list - destruction scribbles over the destroyed objects
   only, relocation through copy/move constructors reproduces the bytes.
   erase() with elements behind the erased ones re-emplaces every following element: on lists
   without VaryingSize parameter that is covered by FixedErase.v; with one it is the known
   finding (overlap) and is not covered. *)
From Coq Require Import ZArith Lia List Bool.
From Cntgs Require Import Layout LayoutThm Mem MemLemmas Vector Spec Rep StableThm ElemLemmas Ordered Refine
     TightThm FixedErase.
From Cntgs Require Export NtBase.
Import ListNotations.
Local Open Scope Z_scope.

Lemma mwrite_same m a bs x : mread m a (length bs) = bs -> mwrite m a bs x = m x.
Proof.
  intros H. unfold mwrite. destruct (inr a (Z.of_nat (length bs)) x) eqn:E; [|reflexivity].
  apply inr_true in E. rewrite <- H at 1. rewrite mread_nth by lia. f_equal. lia.
Qed.

(* objects are visited in increasing address order: what has been overwritten in the source
   (moved-from bytes) lies below the current object; the target block, which already holds a
   byte-wise copy, is written with the bytes it holds *)
Lemma relocate_objs_spec orig mv p sbid bid : forall n ms m src,
  0 < psz p ->
  (forall x, src <= x -> ms x = orig x) ->
  (forall x, src <= x < src + Z.of_nat n * psz p -> m x = orig x) ->
  let r := relocate_objs mv p sbid bid ms m src src n in
  (forall x, src + Z.of_nat n * psz p <= x -> fst (fst r) x = orig x) /\
  (forall x, snd (fst r) x = m x) /\
  (forall x, x < src -> fst (fst r) x = ms x).
Proof.
  induction n as [|n IH]; intros ms m src Hs Hms Hm; cbv zeta.
  - split; [intros x Hx; apply Hms; lia|]. split; auto.
  - cbn [relocate_objs]. rewrite Nat2Z.inj_succ, Z.mul_succ_l in *.
    set (bs := mread ms src (Z.to_nat (psz p))).
    assert (Hm1 : forall x, mwrite m src bs x = m x).
    { intros x. apply mwrite_same. unfold bs. rewrite mread_length. apply mread_ext.
      intros y Hy. rewrite Hm, Hms by lia. reflexivity. }
    set (ms1 := if mv then mwrite ms src (moved_bytes (psz p)) else ms).
    assert (Hms1 : forall x, ~ (src <= x < src + psz p) -> ms1 x = ms x).
    { intros x Hx. destruct mv; [|reflexivity]. apply mwrite_moved_out; assumption. }
    specialize (IH ms1 (mwrite m src bs) (src + psz p) Hs
                   ltac:(intros x Hx; rewrite Hms1 by lia; apply Hms; lia)
                   ltac:(intros x Hx; rewrite Hm1; apply Hm; lia)).
    destruct (relocate_objs mv p sbid bid ms1 _ (src + psz p) (src + psz p) n) as [[ms2 m2] evs]. cbn [fst snd] in *.
    destruct IH as (I1 & I2 & I3). split; [|split].
    + intros x Hx. apply I1. lia.
    + intros x. rewrite I2. apply Hm1.
    + intros x Hx. rewrite I3 by lia. apply Hms1. lia.
Qed.

Lemma relocate_fields_spec orig mv sbid bid L : forall cnts xs ms m lo hi,
  Forall wfp L -> Forall (fun c => 0 <= c) cnts -> ordered_from lo (extents L cnts xs) hi ->
  (forall x, lo <= x -> ms x = orig x) -> (forall x, lo <= x < hi -> m x = orig x) ->
  let r := relocate_fields mv L (combine xs cnts) sbid bid ms m 0 in
  (forall x, hi <= x -> fst (fst r) x = orig x) /\ (forall x, snd (fst r) x = m x).
Proof.
  induction L as [|p L IH]; intros cnts xs ms m lo hi HF Hc Ho Hms Hm; cbv zeta.
  (* when the parameters, the addresses or the counts run out nothing is relocated *)
  all: pose proof (ordered_from_le _ _ _ Ho) as Hle.
  all: assert (Hnone : (forall x, hi <= x -> ms x = orig x) /\ (forall x, m x = m x))
         by (split; [intros; apply Hms; lia|reflexivity]).
  - exact Hnone.
  - destruct xs as [|x0 xs]; [exact Hnone|]. destruct cnts as [|c cnts]; [exact Hnone|]. clear Hnone Hle.
    cbn [combine relocate_fields]. cbn [extents ordered_from] in Ho. destruct Ho as (H1 & H2 & Ho).
    apply Forall_cons_iff in HF. destruct HF as [[Hs _] HF]. apply Forall_cons_iff in Hc. destruct Hc as [Hc0 Hcr].
    pose proof (ordered_from_le _ _ _ Ho) as Hle.
    (* field 0 is relocated object by object, or, its type being trivially constructible, left alone *)
    assert (Hr : let r := if ntc mv p then relocate_objs mv p sbid bid ms m x0 (x0 + 0) (Z.to_nat c) else (ms, m, []) in
                 (forall x, x0 + c * psz p <= x -> fst (fst r) x = orig x) /\ (forall x, snd (fst r) x = m x)).
    { destruct (ntc mv p); [|split; [intros; apply Hms; lia|reflexivity]].
      pose proof (relocate_objs_spec orig mv p sbid bid (Z.to_nat c) ms m x0 Hs ltac:(intros; apply Hms; lia)) as Hr.
      rewrite Z2Nat.id in Hr by exact Hc0. rewrite Z.add_0_r.
      destruct Hr as (R1 & R2 & _); [intros y Hy; apply Hm; lia|split; assumption]. }
    destruct (if ntc mv p then _ else _) as [[ms1 m1] e1]. cbn [fst snd] in Hr.
    destruct Hr as (R1 & R2).
    specialize (IH cnts xs ms1 m1 (x0 + c * psz p) hi HF Hcr Ho R1 ltac:(intros y Hy; rewrite R2; apply Hm; lia)).
    destruct (relocate_fields mv L (combine xs cnts) sbid bid ms1 m1 0) as [[ms2 m2] e2]. cbn [fst snd] in *.
    destruct IH as (I1 & I2). split; [exact I1|]. intros y. rewrite I2. apply R2.
Qed.

Section Nt.
  Variable L : list param.
  Hypothesis Hwf : wf_plist L = true.

  Lemma relocate_elems_mem mv bid v l offs : RepO L v l offs ->
    forall n k ms m,
    (k + n = length l)%nat ->
    (forall x, eo_end L 0 (firstn k offs) (firstn k l) <= x -> ms x = v_mem v x) ->
    (forall x, 0 <= x < dend L v -> m x = v_mem v x) ->
    forall x, snd (fst (relocate_elems mv L (set_mem v ms) bid m (Z.of_nat k) n)) x = m x.
  Proof.
    intros R. pose proof (rep_len L v l offs R) as Hlen.
    induction n as [|n IH]; intros k ms m Hk Hms Hm x; [reflexivity|].
    cbn [relocate_elems]. assert (Hkl : (k < length l)%nat) by lia.
    destruct (rep_nth L Hwf v l offs k R Hkl) as (Ha0 & _ & Hin & _).
    destruct (eo_end_firstn_le L k 0 offs l _ (r_order _ _ _ _ R) ltac:(lia)) as [Hle _].
    (* the element is still intact in the (partly moved-from) source *)
    destruct (rep_elem_view L Hwf v l offs k ms R Hkl ltac:(intros y Hy; apply Hms; lia)) as (Ea & Etab & _ & Hpo).
    rewrite Ea. change (v_fixed (set_mem v ms)) with (v_fixed v). change (v_mem (set_mem v ms)) with ms.
    change (v_bid (set_mem v ms)) with (v_bid v). rewrite Etab.
    pose proof (relocate_fields_spec (v_mem v) mv (bidn (v_bid v)) bid L _ _ ms m _ _
                  (wf_plist_Forall L Hwf) (cnts_of_nonneg _) Hpo
                  ltac:(intros y Hy; apply Hms; lia) ltac:(intros y Hy; apply Hm; lia)) as Hrf.
    destruct (relocate_fields mv L _ (bidn (v_bid v)) bid ms m 0) as [[ms1 m1] e1].
    cbn [fst snd] in Hrf. destruct Hrf as (F1 & F2).
    change (set_mem (set_mem v ms) ms1) with (set_mem v ms1).
    replace (Z.of_nat k + 1) with (Z.of_nat (S k)) by lia.
    specialize (IH (S k) ms1 m1 ltac:(lia)
                   ltac:(intros y Hy; rewrite eo_end_firstn_S in Hy by lia; apply F1; exact Hy)
                   ltac:(intros y Hy; rewrite F2; apply Hm; exact Hy) x).
    destruct (relocate_elems mv L (set_mem v ms1) bid m1 (Z.of_nat (S k)) n) as [[s2 m2] e2]. cbn [fst snd] in *.
    rewrite IH. apply F2.
  Qed.

  Lemma insert_into_mem mv destr v l offs bid junk : RepO L v l offs ->
    forall x, 0 <= x < dend L v -> snd (fst (insert_into mv destr L v bid junk)) x = v_mem v x.
  Proof.
    intros R x Hx. unfold insert_into. set (m0 := mcopy (v_mem v) 0 junk 0 (dend L v)).
    assert (Hm0 : forall y, 0 <= y < dend L v -> m0 y = v_mem v y).
    { intros y Hy. unfold m0. rewrite mcopy_in by lia. f_equal. lia. }
    destruct (all_ctriv _ L && (negb destr || all_dtriv L)); [exact (Hm0 x Hx)|].
    assert (Hre : snd (fst (if all_ctriv mv L then (v, m0, [])
                            else relocate_elems mv L v bid m0 0 (Z.to_nat (vsize L v)))) x = v_mem v x).
    { destruct (all_ctriv mv L); [exact (Hm0 x Hx)|]. rewrite (rep_vsize L v l offs R), Nat2Z.id.
      pose proof (relocate_elems_mem mv bid v l offs R (length l) 0 (v_mem v) m0 eq_refl ltac:(reflexivity) Hm0 x) as Hre.
      rewrite set_mem_id in Hre. etransitivity; [exact Hre|exact (Hm0 x Hx)]. }
    (* the destruction of the source does not touch the new block *)
    destruct (if all_ctriv mv L then _ else _) as [[s1 m1] e1].
    destruct (if destr && negb (all_dtriv L) then _ else _) as [s2 e2]. exact Hre.
  Qed.

  Theorem reserve_rep_nt v l n b junk bid tbid : Rep L v l ->
    Rep L (fst (reserve L v n b junk bid tbid)) l /\
    v_cap (fst (reserve L v n b junk bid tbid)) = Z.max (v_cap v) n /\
    v_fixed (fst (reserve L v n b junk bid tbid)) = v_fixed v.
  Proof.
    intros [offs R]. unfold reserve.
    destruct (Z.ltb_spec (v_cap v) n) as [Hlt|Hge]; [|cbn [fst]; split; [exists offs; exact R|split; [lia|reflexivity]]].
    pose proof (insert_into_mem true true v l offs bid junk R) as Hm.
    destruct (insert_into true true L v bid junk) as [[v1 m] e1]. cbn [fst snd v_cap v_fixed] in *.
    split; [|split; [lia|reflexivity]].
    apply (rep_relocate L Hwf v l n (Some bid) _ (v_aid v) m tbid (v_tbl v)); [exists offs; exact R| |exact Hm].
    pose proof (r_cap _ _ _ _ R). lia.
  Qed.

  Lemma destruct_range_mem v l offs : RepO L v l offs -> forall n i ms,
    (i + n <= length l)%nat ->
    (forall x, nth i offs 0 <= x -> ms x = v_mem v x) ->
    exists m', fst (destruct_range L (set_mem v ms) (Z.of_nat i) n) = set_mem v m' /\
      forall y, y < nth i offs 0 -> m' y = ms y.
  Proof.
    intros R n i ms Hin Hms.
    destruct (destruct_range_inside L Hwf v l offs R n i ms Hin) as (m' & E & F).
    { intros k Hk. apply (rep_elem_view L Hwf v l offs k ms R ltac:(lia)).
      intros x Hx. apply Hms. pose proof (rep_offs_le L Hwf v l offs i k R ltac:(lia)). lia. }
    exists m'. split; [exact E|]. intros y Hy. apply F. intros k Hk.
    pose proof (rep_offs_le L Hwf v l offs i k R ltac:(lia)). lia.
  Qed.

  (* erase(first, end()) and clear, every list: the elements from [i] on are destroyed, nothing
     is moved *)
  Lemma destroy_tail_rep v l i : Rep L v l -> (i <= length l)%nat ->
    Rep L (resize L (fst (if all_dtriv L then (v, []) else destruct_range L v (Z.of_nat i) (length l - i))) (Z.of_nat i))
          (firstn i l).
  Proof.
    intros [offs R] Hi. rewrite destruct_range_guard.
    destruct (Nat.eq_dec i (length l)) as [->|Hne].
    - rewrite Nat.sub_diag. apply resize_rep; [exact Hwf|exists offs; exact R|lia].
    - destruct (destruct_range_mem v l offs R (length l - i) i (v_mem v) ltac:(lia) ltac:(reflexivity)) as (m' & E & F).
      rewrite set_mem_id in E. rewrite E. exists (firstn i offs).
      apply (shrink_rep L Hwf v l offs i m' R ltac:(lia)). intros x Hx. apply F. lia.
  Qed.

  Theorem erase_to_end_rep_nt v l i : Rep L v l -> 0 <= i <= Z.of_nat (length l) ->
    Rep L (fst (erase_range L v i (Z.of_nat (length l)))) (firstn (Z.to_nat i) l).
  Proof.
    intros R Hi. pose proof (destroy_tail_rep v l (Z.to_nat i) R ltac:(lia)) as H.
    unfold erase_range. rewrite (proj1 (rep_observe L Hwf v l R)), Z.ltb_irrefl.
    cbn [andb]. rewrite Z2Nat.id in H by lia.
    replace (Z.to_nat (Z.of_nat (length l) - i)) with (length l - Z.to_nat i)%nat by lia.
    replace (Z.of_nat (length l) - (Z.of_nat (length l) - i)) with i by lia.
    destruct (if all_dtriv L then _ else _) as [v1 e1]. exact H.
  Qed.

  Theorem pop_back_rep_nt v l : Rep L v l -> l <> [] -> Rep L (fst (pop_back L v)) (removelast l).
  Proof.
    intros R Hl. assert (Hn : (0 < length l)%nat) by (destruct l; [congruence|cbn; lia]).
    rewrite pop_back_as_erase_range, (proj1 (rep_observe L Hwf v l R)), removelast_firstn_len.
    replace (Nat.pred (length l)) with (Z.to_nat (Z.of_nat (length l) - 1)) by lia.
    apply erase_to_end_rep_nt; [exact R|lia].
  Qed.

  Theorem clear_rep_nt v l : Rep L v l -> Rep L (fst (clear L v)) [].
  Proof.
    intros R. rewrite clear_as_erase_range, (proj1 (rep_observe L Hwf v l R)).
    exact (erase_to_end_rep_nt v l 0 R ltac:(lia)).
  Qed.

  (* the steps that are covered.  erase with elements behind the erased ones is one memmove on
     trivially relocatable lists (proved in Refine.v; allowed by [nt_ok]); otherwise it
     re-emplaces them one by one, which is covered on lists without VaryingSize parameter
     (proved in FixedErase.v; allowed by [nt_okx] only); every other step is covered on every list *)
  Definition nt_ok (s : svec) (o : sop) : Prop :=
    all_triv L = true \/
    match o with
    | SErase i => i + 1 = Z.of_nat (length (s_elems s))
    | SEraseRange i j => j = Z.of_nat (length (s_elems s))
    | _ => True
    end.

  Definition nt_okx (s : svec) (o : sop) : Prop := has_varying L = false \/ nt_ok s o.

  Lemma erase_range_rep_nt v l i j : all_triv L = false -> Rep L v l -> 0 <= i <= j -> j <= Z.of_nat (length l) ->
    has_varying L = false \/ j = Z.of_nat (length l) ->
    Rep L (fst (erase_range L v i j)) (remove_range (Z.to_nat i) (Z.to_nat j) l).
  Proof.
    intros Ht R Hi Hj Hn. destruct (Z.eq_dec j (Z.of_nat (length l))) as [->|Hne].
    - rewrite remove_range_end by lia. apply erase_to_end_rep_nt; [exact R|lia].
    - destruct Hn as [Hnv|Hn]; [|contradiction]. destruct R as [offs R].
      pose proof (erase_range_rep_fixed_nt L Hwf Hnv Ht v l offs R (Z.to_nat i) (Z.to_nat j)
                    ltac:(lia) ltac:(left; lia) ltac:(lia)) as H.
      rewrite !Z2Nat.id in H by lia. exact (proj1 H).
  Qed.

  Lemma erase_rep_nt v l i : all_triv L = false -> Rep L v l -> 0 <= i < Z.of_nat (length l) ->
    has_varying L = false \/ i + 1 = Z.of_nat (length l) ->
    Rep L (fst (erase L v i)) (remove_range (Z.to_nat i) (S (Z.to_nat i)) l).
  Proof.
    intros Ht R Hi Hn. pose proof (proj1 (rep_observe L Hwf v l R)) as Hsz.
    assert (E : erase L v i = erase_range L v i (i + 1))
      by (destruct (Z.eq_dec (i + 1) (vsize L v)); [apply erase_last_as_erase_range; assumption|apply erase_as_erase_range; lia]).
    rewrite E. replace (S (Z.to_nat i)) with (Z.to_nat (i + 1)) by lia.
    apply erase_range_rep_nt; [exact Ht|exact R|lia|lia|exact Hn].
  Qed.

  Theorem vstep_rep_ntx junk v s o :
    Rep L v (s_elems s) -> v_cap v = s_cap s -> svalid L (fixed_counts L (v_fixed v)) s o -> nt_okx s o ->
    Rep L (vstep L junk v o) (s_elems (sstep s o)) /\ v_cap (vstep L junk v o) = s_cap (sstep s o) /\
    v_fixed (vstep L junk v o) = v_fixed v.
  Proof.
    intros R Hc Hv Hn.
    destruct (all_triv L) eqn:Ht; [exact (vstep_rep L Hwf Ht junk v s o R Hc Hv)|].
    destruct (vstep_cap_fixed L junk v o) as [Hf Hcap].
    split; [|split; [rewrite Hcap; destruct o; cbn [sstep s_cap]; congruence|exact Hf]].
    (* [all_triv L = false] here, which leaves the other two cases of [nt_okx] *)
    assert (Hn' : has_varying L = false \/
                  match o with
                  | SErase i => i + 1 = Z.of_nat (length (s_elems s))
                  | SEraseRange i j => j = Z.of_nat (length (s_elems s))
                  | _ => True
                  end) by (destruct Hn as [Hn|[Hn|Hn]]; [left; exact Hn|congruence|right; exact Hn]).
    destruct o as [t| |i|i j| |n b]; cbn [vstep sstep s_elems svalid] in *.
    - apply emplace_rep; [exact Hwf|exact R|lia|tauto].
    - apply pop_back_rep_nt; assumption.
    - apply erase_rep_nt; assumption.
    - apply erase_range_rep_nt; tauto.
    - exact (clear_rep_nt v _ R).
    - exact (proj1 (reserve_rep_nt v _ n b junk O O R)).
  Qed.

  Theorem vstep_rep_nt junk v s o :
    Rep L v (s_elems s) -> v_cap v = s_cap s -> svalid L (fixed_counts L (v_fixed v)) s o -> nt_ok s o ->
    Rep L (vstep L junk v o) (s_elems (sstep s o)) /\ v_cap (vstep L junk v o) = s_cap (sstep s o) /\
    v_fixed (vstep L junk v o) = v_fixed v.
  Proof. intros R Hc Hv Hn. exact (vstep_rep_ntx junk v s o R Hc Hv (or_intror Hn)). Qed.

  Fixpoint nt_hist_ok (s : svec) (h : list sop) : Prop :=
    match h with
    | [] => True
    | o :: h' => nt_ok s o /\ nt_hist_ok (sstep s o) h'
    end.

  Fixpoint nt_hist_okx (s : svec) (h : list sop) : Prop :=
    match h with
    | [] => True
    | o :: h' => nt_okx s o /\ nt_hist_okx (sstep s o) h'
    end.

  Lemma nt_hist_ok_okx h : forall s, nt_hist_ok s h -> nt_hist_okx s h.
  Proof.
    induction h as [|o h IH]; intros s H; cbn [nt_hist_ok nt_hist_okx] in *; [exact I|].
    destruct H as [H1 H2]. split; [right; exact H1|apply IH; exact H2].
  Qed.

  Lemma nt_hist_okx_fixed h : has_varying L = false -> forall s, nt_hist_okx s h.
  Proof.
    intros Hnv. induction h as [|o h IH]; intros s; cbn [nt_hist_okx]; [exact I|].
    split; [left; exact Hnv|apply IH].
  Qed.

  Lemma nt_hist_okx_triv h : all_triv L = true -> forall s, nt_hist_okx s h.
  Proof.
    intros Ht. induction h as [|o h IH]; intros s; cbn [nt_hist_okx]; [exact I|].
    split; [right; left; exact Ht|apply IH].
  Qed.

  Theorem vrun_rep_ntx junk h : forall v s,
    Rep L v (s_elems s) -> v_cap v = s_cap s -> shist_valid L (fixed_counts L (v_fixed v)) s h ->
    nt_hist_okx s h ->
    Rep L (vrun L junk v h) (s_elems (srun s h)) /\ v_cap (vrun L junk v h) = s_cap (srun s h).
  Proof.
    intros v s R Hc Hv Hn.
    apply (vrun_ind L (fun v s h => (Rep L v (s_elems s) /\ v_cap v = s_cap s) /\ nt_hist_okx s h) junk); auto.
    intros v' s' o h' [[R' Hc'] [Hn1 Hn2]] Hv'. destruct (vstep_rep_ntx junk v' s' o R' Hc' Hv' Hn1) as (A & B & _). auto.
  Qed.
End Nt.

Lemma built_rep L cap budget fixed aid junk bid tbid h :
  wf_plist L = true -> 0 <= cap -> Forall (fun c => 0 <= c) fixed ->
  let v0 := fst (mkvec L cap budget fixed aid junk bid tbid) in
  let s0 := {| s_cap := cap; s_elems := [] |} in
  shist_valid L (fixed_counts L fixed) s0 h -> nt_hist_okx L s0 h ->
  Rep L (vrun L junk v0 h) (s_elems (srun s0 h)) /\ v_cap (vrun L junk v0 h) = s_cap (srun s0 h).
Proof.
  intros Hwf Hcap Hfx. cbv zeta. intros Hv Hn.
  destruct (mkvec_rep_ok L Hwf cap budget fixed aid junk bid tbid Hcap Hfx) as (R0 & Hc0 & _).
  exact (vrun_rep_ntx L Hwf junk h _ {| s_cap := cap; s_elems := [] |} R0 Hc0 Hv Hn).
Qed.

(* C01 under the weakest restriction: erase() with elements behind the erased ones only on
   trivially relocatable lists or on lists without a VaryingSize parameter.  So NO restriction
   at all on the latter - there every valid history, erase() in the middle over non-trivially
   relocatable value types included, keeps the vector a faithful image of the list of tuples *)
Theorem refinement_every_list_x : forall L cap budget fixed aid junk bid tbid h,
  wf_plist L = true -> 0 <= cap -> Forall (fun c => 0 <= c) fixed ->
  let v0 := fst (mkvec L cap budget fixed aid junk bid tbid) in
  let s0 := {| s_cap := cap; s_elems := [] |} in
  shist_valid L (fixed_counts L fixed) s0 h -> nt_hist_okx L s0 h ->
  let v := vrun L junk v0 h in
  let s := srun s0 h in
  vsize L v = Z.of_nat (length (s_elems s)) /\
  v_cap v = s_cap s /\
  forall i, (i < length (s_elems s))%nat ->
    read_elem L (v_fixed v) (v_mem v) (eaddr L v (Z.of_nat i)) = nth i (s_elems s) [].
Proof.
  intros L cap budget fixed aid junk bid tbid h Hwf Hcap Hfx. cbv zeta. intros Hv Hn.
  destruct (built_rep L cap budget fixed aid junk bid tbid h Hwf Hcap Hfx Hv Hn) as (R & Hc).
  destruct (rep_observe L Hwf _ _ R) as (H1 & H2). auto.
Qed.

(* C01 for EVERY well-formed parameter list - trivially copyable and non-trivial value types
   alike: construction, then any valid history in which erase() is either applied to a list
   of trivially relocatable types or removes elements up to the end *)
Theorem refinement_every_list : forall L cap budget fixed aid junk bid tbid h,
  wf_plist L = true -> 0 <= cap -> Forall (fun c => 0 <= c) fixed ->
  let v0 := fst (mkvec L cap budget fixed aid junk bid tbid) in
  let s0 := {| s_cap := cap; s_elems := [] |} in
  shist_valid L (fixed_counts L fixed) s0 h -> nt_hist_ok L s0 h ->
  let v := vrun L junk v0 h in
  let s := srun s0 h in
  vsize L v = Z.of_nat (length (s_elems s)) /\
  v_cap v = s_cap s /\
  forall i, (i < length (s_elems s))%nat ->
    read_elem L (v_fixed v) (v_mem v) (eaddr L v (Z.of_nat i)) = nth i (s_elems s) [].
Proof.
  intros L cap budget fixed aid junk bid tbid h Hwf Hcap Hfx. cbv zeta. intros Hv Hn.
  apply refinement_every_list_x; auto. apply nt_hist_ok_okx. exact Hn.
Qed.

Corollary refinement_fixed_list_every_history : forall L cap budget fixed aid junk bid tbid h,
  wf_plist L = true -> has_varying L = false -> 0 <= cap -> Forall (fun c => 0 <= c) fixed ->
  let v0 := fst (mkvec L cap budget fixed aid junk bid tbid) in
  let s0 := {| s_cap := cap; s_elems := [] |} in
  shist_valid L (fixed_counts L fixed) s0 h ->
  let v := vrun L junk v0 h in
  let s := srun s0 h in
  vsize L v = Z.of_nat (length (s_elems s)) /\
  v_cap v = s_cap s /\
  forall i, (i < length (s_elems s))%nat ->
    read_elem L (v_fixed v) (v_mem v) (eaddr L v (Z.of_nat i)) = nth i (s_elems s) [].
Proof.
  intros L cap budget fixed aid junk bid tbid h Hwf Hnv Hcap Hfx. cbv zeta. intros Hv.
  apply refinement_every_list_x; auto. apply nt_hist_okx_fixed. exact Hnv.
Qed.

(* the hypotheses are satisfiable for a list with a non-trivial type:
   (uint32, VaryingSize<Tracked 8-byte type>), emplace x3, reserve, pop_back, emplace, erase of
   the last element, emplace, erase(first, end()), emplace, clear, emplace *)
Definition ntL : list param :=
  [ {| pk := Plain; psz := 4; pal := 4; pty := TUInt |};
    {| pk := Varying; psz := 8; pal := 8; pty := TTrk |} ].
Definition ntA : tuple := [[[1; 0; 0; 0]]; [[1; 2; 3; 4; 5; 6; 7; 8]]].
Definition ntB : tuple := [[[2; 0; 0; 0]]; [[9; 9; 9; 9; 9; 9; 9; 9]; [8; 8; 8; 8; 8; 8; 8; 8]]].
Definition ntC : tuple := [[[0; 0; 0; 0]]; []].
Definition ntH : list sop :=
  [SEmplace ntA; SEmplace ntB; SEmplace ntC; SReserve 6 64; SPopBack; SEmplace ntB; SErase 2;
   SEmplace ntA; SEraseRange 1 3; SEmplace ntC; SClear; SEmplace ntB].
Example refinement_every_list_applies :
  wf_plist ntL = true /\ all_triv ntL = false /\
  shist_valid ntL (fixed_counts ntL []) {| s_cap := 3; s_elems := [] |} ntH /\
  nt_hist_ok ntL {| s_cap := 3; s_elems := [] |} ntH /\
  s_elems (srun {| s_cap := 3; s_elems := [] |} ntH) = [ntB].
Proof.
  split; [reflexivity|]. split; [reflexivity|]. split; [|split].
  - repeat split; try lia; try discriminate; repeat constructor.
  - cbn. unfold nt_ok. cbn. repeat split; try (right; lia); auto.
  - reflexivity.
Qed.

(* C05 at history level for every list: the representation invariant (with tight packing)
   holds after every valid history in which erase with a tail only occurs on trivially
   relocatable lists or on lists without a VaryingSize parameter *)
Theorem rep_every_history_nt : forall L cap budget fixed aid junk bid tbid h,
  wf_plist L = true -> 0 <= cap -> Forall (fun c => 0 <= c) fixed ->
  let v0 := fst (mkvec L cap budget fixed aid junk bid tbid) in
  let s0 := {| s_cap := cap; s_elems := [] |} in
  shist_valid L (fixed_counts L fixed) s0 h -> nt_hist_okx L s0 h ->
  Rep L (vrun L junk v0 h) (s_elems (srun s0 h)).
Proof.
  intros L cap budget fixed aid junk bid tbid h Hwf Hcap Hfx. cbv zeta. intros Hv Hn.
  exact (proj1 (built_rep L cap budget fixed aid junk bid tbid h Hwf Hcap Hfx Hv Hn)).
Qed.

Theorem tight_every_history_nt : forall L cap budget fixed aid junk bid tbid h,
  wf_plist L = true -> 0 <= cap -> Forall (fun c => 0 <= c) fixed ->
  let v0 := fst (mkvec L cap budget fixed aid junk bid tbid) in
  let s0 := {| s_cap := cap; s_elems := [] |} in
  shist_valid L (fixed_counts L fixed) s0 h -> nt_hist_okx L s0 h ->
  let v := vrun L junk v0 h in
  let l := s_elems (srun s0 h) in
  (forall i, (i < length l)%nat -> eaddr L v (Z.of_nat i) = first_align L (prev_end L v l i)) /\
  (dend L v = prev_end L v l (length l) \/ dend L v = first_align L (prev_end L v l (length l))).
Proof.
  intros L cap budget fixed aid junk bid tbid h Hwf Hcap Hfx. cbv zeta. intros Hv Hn.
  apply rep_positions_tight; auto. apply rep_every_history_nt; auto.
Qed.
