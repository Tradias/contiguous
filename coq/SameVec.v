(* SameVec.v — reference assignment and swap WITHIN ONE VECTOR (C11): both references see every
   write (Proxy.mm, m_same = true).  As long as every access through the "source" reference stays
   off the target element's extent D and every access through the "target" reference stays
   inside it - which is what two different elements of a vector give -, the one-memory run is
   the two-memory run glued together: at every address the single memory holds what the target
   memory holds inside D and what the source memory holds elsewhere; the events are the same.
   The two-memory theorems of AssignThm / MoveThm / SwapThm then carry over to v[i] = v[j],
   v[i] = std::move(v[j]) and swap(v[i], v[j]) for i <> j.  Self-assignment and self-swap change
   no byte. *)
From Coq Require Import ZArith List Bool Lia.
From Cntgs Require Import Layout Mem MemLemmas Vector Proxy Spec Rep ElemLemmas ElemThm AssignThm MoveThm SwapThm
     Ordered Refine.
Import ListNotations.
Local Open Scope Z_scope.

Section Sim.
  Variable D : Z -> bool.

  (* the one-memory state x is the two-memory state y glued along D: the target memory inside D,
     the source memory elsewhere *)
  Definition simr (x y : mm) : Prop :=
    m_same x = true /\ m_same y = false /\ (forall a, m_s x a = m_d x a) /\
    (forall a, m_d x a = if D a then m_d y a else m_s y a).

  Definition inD (a n : Z) : Prop := forall z, a <= z < a + n -> D z = true.
  Definition offD (a n : Z) : Prop := forall z, a <= z < a + n -> D z = false.

  Lemma inD_sub a n a' n' : inD a n -> a <= a' -> a' + n' <= a + n -> inD a' n'.
  Proof. intros H H1 H2 z Hz. apply H. lia. Qed.
  Lemma offD_sub a n a' n' : offD a n -> a <= a' -> a' + n' <= a + n -> offD a' n'.
  Proof. intros H H1 H2 z Hz. apply H. lia. Qed.

  Lemma sim_read_s x y a n : simr x y -> offD a (Z.of_nat n) -> mread (m_s x) a n = mread (m_s y) a n.
  Proof.
    intros (_ & _ & Hsd & Hm) Ho. apply mread_ext. intros z Hz. rewrite Hsd, Hm, (Ho z Hz). reflexivity.
  Qed.
  Lemma sim_read_d x y a n : simr x y -> inD a (Z.of_nat n) -> mread (m_d x) a n = mread (m_d y) a n.
  Proof.
    intros (_ & _ & _ & Hm) Hi. apply mread_ext. intros z Hz. rewrite Hm, (Hi z Hz). reflexivity.
  Qed.

  Lemma sim_wr_d x y a bs : simr x y -> inD a (Z.of_nat (length bs)) -> simr (wr_d x a bs) (wr_d y a bs).
  Proof.
    intros (Hx & Hy & Hsd & Hm) Hi. unfold simr, wr_d. rewrite Hx, Hy. cbn [m_s m_d m_same].
    repeat split; intros z. unfold mwrite.
    destruct (inr a (Z.of_nat (length bs)) z) eqn:E.
    - apply inr_true in E. rewrite (Hi z E). reflexivity.
    - apply Hm.
  Qed.
  Lemma sim_wr_s x y a bs : simr x y -> offD a (Z.of_nat (length bs)) -> simr (wr_s x a bs) (wr_s y a bs).
  Proof.
    intros (Hx & Hy & Hsd & Hm) Ho. unfold simr, wr_s. rewrite Hx, Hy. cbn [m_s m_d m_same].
    repeat split; intros z. unfold mwrite.
    destruct (inr a (Z.of_nat (length bs)) z) eqn:E.
    - apply inr_true in E. rewrite (Ho z E). reflexivity.
    - rewrite Hsd. apply Hm.
  Qed.

  Lemma sim_copy_block x y sa da n : simr x y -> offD sa (Z.of_nat n) -> inD da (Z.of_nat n) ->
    simr (wr_d x da (mread (m_s x) sa n)) (wr_d y da (mread (m_s y) sa n)).
  Proof.
    intros H Ho Hi. rewrite (sim_read_s x y sa n H Ho). apply sim_wr_d; [exact H|]. rewrite mread_length. exact Hi.
  Qed.
  Lemma sim_swap_block x y xa ya n : simr x y -> offD xa (Z.of_nat n) -> inD ya (Z.of_nat n) ->
    simr (wr_d (wr_s x xa (mread (m_d x) ya n)) ya (mread (m_s x) xa n))
         (wr_d (wr_s y xa (mread (m_d y) ya n)) ya (mread (m_s y) xa n)).
  Proof.
    intros H Ho Hi. rewrite (sim_read_s x y xa n H Ho), (sim_read_d x y ya n H Hi).
    apply sim_wr_d; [apply sim_wr_s; [exact H|]|]; rewrite mread_length; assumption.
  Qed.

  Lemma assign_obj_sim mv p sb db x y sa da : 0 < psz p -> simr x y -> offD sa (psz p) -> inD da (psz p) ->
    simr (fst (assign_obj mv p sb db x (sa, da))) (fst (assign_obj mv p sb db y (sa, da))) /\
    snd (assign_obj mv p sb db x (sa, da)) = snd (assign_obj mv p sb db y (sa, da)).
  Proof.
    intros Hp Hsim Ho Hi. split; [|reflexivity]. cbn [assign_obj fst].
    rewrite <- (Z2Nat.id (psz p)) in Ho, Hi by lia.
    pose proof (sim_copy_block x y sa da (Z.to_nat (psz p)) Hsim Ho Hi) as H1.
    assert (Hne : (sa =? da) = false).
    { apply Z.eqb_neq. intros ->. pose proof (Ho da ltac:(lia)). pose proof (Hi da ltac:(lia)). congruence. }
    rewrite Hne, !andb_false_r, andb_true_r. destruct mv; [|exact H1].
    apply sim_wr_s; [exact H1|]. unfold moved_bytes. rewrite repeat_length. exact Ho.
  Qed.

  (* the loop over the objects of a MANUAL field, when every single step preserves the relation *)
  Lemma blocks_sim (one : mm -> Z * Z -> mm * list ev) sz n x y sa da : 0 < sz ->
    (forall x y a b, simr x y -> offD a sz -> inD b sz ->
       simr (fst (one x (a, b))) (fst (one y (a, b))) /\ snd (one x (a, b)) = snd (one y (a, b))) ->
    simr x y -> offD sa (Z.of_nat n * sz) -> inD da (Z.of_nat n * sz) ->
    simr (fst (steps one x (addrs sz sa da n))) (fst (steps one y (addrs sz sa da n))) /\
    snd (steps one x (addrs sz sa da n)) = snd (steps one y (addrs sz sa da n)).
  Proof.
    intros Hsz Hone Hsim Ho Hi. apply (steps_rel simr); [|exact Hsim].
    intros x' y' [a b] Hin Hxy. destruct (addrs_in _ _ _ _ _ _ Hin) as [Hd Hr]. specialize (Hr ltac:(lia)).
    apply Hone; [exact Hxy|apply (offD_sub _ _ _ _ Ho)|apply (inD_sub _ _ _ _ Hi)]; lia.
  Qed.

  Variable L : list param.

  Lemma assign_one_sim mv sb db fls fld x y k : 0 < psz (nth k L pparam0) -> simr x y ->
    offD (fst (nth k fls fld0)) (fl_step_len L (runs_asg mv L) fls k) ->
    inD (fst (nth k fld fld0)) (fl_step_len L (runs_asg mv L) fls k) ->
    simr (fst (assign_one mv L sb db fls fld x k)) (fst (assign_one mv L sb db fls fld y k)) /\
    snd (assign_one mv L sb db fls fld x k) = snd (assign_one mv L sb db fls fld y k).
  Proof.
    intros Hp Hsim Ho Hi. unfold assign_one, fl_step_len in *.
    destruct (nth k (runs_asg mv L) RSkip) as [| |e]; [cbn [fst snd]; auto| |].
    - rewrite !assign_objs_steps. apply blocks_sim; [exact Hp| |exact Hsim|exact Ho|exact Hi].
      intros x' y' a b. apply assign_obj_sim. exact Hp.
    - cbn [fst snd]. split; [apply sim_copy_block; assumption|reflexivity].
  Qed.

  Lemma swap_one_sim xb yb flx fly x y k : 0 < psz (nth k L pparam0) -> simr x y ->
    offD (fst (nth k flx fld0)) (fl_step_len L (runs_swp L) flx k) ->
    inD (fst (nth k fly fld0)) (fl_step_len L (runs_swp L) flx k) ->
    simr (fst (swap_one L xb yb flx fly x k)) (fst (swap_one L xb yb flx fly y k)) /\
    snd (swap_one L xb yb flx fly x k) = snd (swap_one L xb yb flx fly y k).
  Proof.
    intros Hp Hsim Ho Hi. unfold swap_one, fl_step_len in *.
    destruct (nth k (runs_swp L) RSkip) as [| |e]; [cbn [fst snd]; auto| |].
    - rewrite !swap_objs_steps. apply blocks_sim; [exact Hp| |exact Hsim|exact Ho|exact Hi].
      intros x' y' a b Hxy Ha Hb. rewrite <- (Z2Nat.id (psz (nth k L pparam0))) in Ha, Hb by lia.
      split; [exact (sim_swap_block x' y' a b _ Hxy Ha Hb)|reflexivity].
    - cbn [fst snd]. split; [apply sim_swap_block; assumption|reflexivity].
  Qed.
End Sim.

Section Inside.
  Variable L : list param.
  Hypothesis Hwf : wf_plist L = true.
  Variables (t : tuple) (fc : list Z).
  Hypothesis Ht : tuple_ok L fc 0 t.
  Variable a : Z.
  Hypothesis Ha : 0 <= a /\ (SA L | a).

  Let cn := cnts_of t.
  Let A := fst (place L cn a).
  Let n := length L.

  Lemma field_inside k e : (k <= e < n)%nat ->
    a <= nth k A 0 /\ nth k A 0 <= nth e A 0 + nth e cn 0 * psz (nth e L pparam0) <= elem_end L a t.
  Proof using Hwf Ht Ha.
    intros Hke. unfold A, cn. pose proof (fields_in_order L Hwf t fc Ht a k e Hke). lia.
  Qed.
End Inside.

Section SameVector.
  Variable L : list param.
  Hypothesis Hwf : wf_plist L = true.
  Variables (ts td : tuple) (fcs fcd : list Z).
  Hypothesis Hts : tuple_ok L fcs 0 ts.
  Hypothesis Htd : tuple_ok L fcd 0 td.
  Hypothesis Hcn : cnts_of td = cnts_of ts.          (* equal field sizes *)
  Variables (m : mem) (sa da : Z).                   (* ONE memory, two element starts *)
  Hypothesis Hsa : 0 <= sa /\ (SA L | sa).
  Hypothesis Hda : 0 <= da /\ (SA L | da).
  Hypothesis Hes : elem_at L m sa ts.

  Let len := elem_end L sa ts - sa.
  Hypothesis Hdisj : sa + len <= da \/ da + len <= sa.

  Let D : Z -> bool := inr da len.
  Let cn := cnts_of ts.
  Let n := length L.
  Let fls := ref_fl L ts sa.
  Let fld := ref_fl L td da.

  Lemma end_da : elem_end L da ts = da + len.
  Proof. exact (elem_end_translate L Hwf sa da ts (proj2 Hsa) (proj2 Hda)). Qed.

  Lemma sim0 : simr D {| m_s := m; m_d := m; m_same := true |} {| m_s := m; m_d := m; m_same := false |}.
  Proof. unfold simr. cbn [m_s m_d m_same]. repeat split. intros a. destruct (D a); reflexivity. Qed.

  (* the block a step reads lies inside the source element, the block it writes inside the target *)
  Lemma step_blocks pred k : (k < n)%nat ->
    offD D (fst (nth k fls fld0)) (fl_step_len L (runs pred false false L) fls k) /\
    inD D (fst (nth k fld fld0)) (fl_step_len L (runs pred false false L) fls k).
  Proof.
    intros Hk. pose proof (step_extent L Hwf ts fcs Hts sa pred k Hk) as He. unfold fls, fld.
    rewrite (fl_step_len_ref L Hwf ts fcs Hts sa pred k Hk), (ref_fl_cnts L ts td da Hcn), !(nth_fl L _ ts fcs Hts k Hk),
      (Ay_Ax L Hwf ts fcs Hts sa da Hsa Hda k Hk).
    cbn [fst]. split; intros z Hz; [apply inr_false|apply inr_true]; unfold len; lia.
  Qed.

  Lemma assign_same_is_glued mv sb db :
    let x := assign_all mv L sb db fls fld {| m_s := m; m_d := m; m_same := true |} (seq 0 n) in
    let y := assign_all mv L sb db fls fld {| m_s := m; m_d := m; m_same := false |} (seq 0 n) in
    simr D (fst x) (fst y) /\ snd x = snd y.
  Proof.
    cbv zeta. rewrite !assign_all_steps. apply (steps_rel (simr D)); [|exact sim0].
    intros x y k Hk Hxy. apply in_seq in Hk. destruct (step_blocks (tasg mv) k ltac:(lia)) as [Ho Hi].
    exact (assign_one_sim D L mv sb db fls fld x y k (psz_pos L Hwf k ltac:(lia)) Hxy Ho Hi).
  Qed.

  Lemma swap_same_is_glued xb yb :
    let x := swap_all L xb yb fls fld {| m_s := m; m_d := m; m_same := true |} (seq 0 n) in
    let y := swap_all L xb yb fls fld {| m_s := m; m_d := m; m_same := false |} (seq 0 n) in
    simr D (fst x) (fst y) /\ snd x = snd y.
  Proof.
    cbv zeta. rewrite !swap_all_steps. apply (steps_rel (simr D)); [|exact sim0].
    intros x y k Hk Hxy. apply in_seq in Hk. destruct (step_blocks tswp k ltac:(lia)) as [Ho Hi].
    exact (swap_one_sim D L xb yb fls fld x y k (psz_pos L Hwf k ltac:(lia)) Hxy Ho Hi).
  Qed.

  Lemma glued x y : simr D x y -> elem_at L (m_d y) da ts ->
    (forall a, m_s x a = m_d x a) /\ elem_at L (m_d x) da ts /\
    (forall z, ~ (da <= z < da + len) -> m_d x z = m_s y z).
  Proof.
    intros (_ & _ & Hsd & Hm) He. split; [exact Hsd|]. unfold D in Hm. split.
    - apply (elem_at_ext L Hwf _ _ da ts fcs Hts) with (2 := He). intros z Hz. rewrite end_da in Hz.
      rewrite Hm, (proj2 (inr_true da len z) Hz). reflexivity.
    - intros z Hz. rewrite Hm, (proj2 (inr_false da len z) Hz). reflexivity.
  Qed.

  (* v[i] = v[j], i <> j *)
  Theorem same_vector_copy_assign sb db :
    let x' := fst (assign_all false L sb db fls fld {| m_s := m; m_d := m; m_same := true |} (seq 0 n)) in
    (forall a, m_s x' a = m_d x' a) /\
    elem_at L (m_d x') da ts /\
    (forall y, ~ (da <= y < da + len) -> m_d x' y = m y).
  Proof using Hwf Hts Htd Hcn Hsa Hda Hes Hdisj.
    cbv zeta. destruct (ref_assign_copy L Hwf ts td fcs fcd Hts Htd Hcn m m sa da Hsa Hda Hes sb db) as (H1 & H2 & _).
    destruct (glued _ _ (proj1 (assign_same_is_glued false sb db)) H2) as (G1 & G2 & G3).
    split; [exact G1|]. split; [exact G2|]. intros z Hz. rewrite (G3 z Hz). fold fls fld n in H1. rewrite H1. reflexivity.
  Qed.

  (* v[i] = std::move(v[j]), i <> j *)
  Theorem same_vector_move_assign sb db :
    let x' := fst (assign_all true L sb db fls fld {| m_s := m; m_d := m; m_same := true |} (seq 0 n)) in
    (forall a, m_s x' a = m_d x' a) /\
    elem_at L (m_d x') da ts /\
    (forall y, ~ (da <= y < da + len) ->
       m_d x' y = if existsb (fun k => man L k && MoveThm.rx L ts sa k y) (seq 0 n) then 238 else m y).
  Proof using Hwf Hts Htd Hcn Hsa Hda Hes Hdisj.
    cbv zeta. destruct (ref_move_assign L Hwf ts td fcs fcd Hts Htd Hcn m m sa da Hsa Hda Hes sb db) as (H1 & _ & H3).
    destruct (glued _ _ (proj1 (assign_same_is_glued true sb db)) H1) as (G1 & G2 & G3).
    split; [exact G1|]. split; [exact G2|]. intros z Hz. rewrite (G3 z Hz). apply H3.
  Qed.

  (* swap needs the target element to be there as well *)
  Hypothesis Hed : elem_at L m da td.

  (* swap(v[i], v[j]), i <> j *)
  Theorem same_vector_swap xb yb :
    let x' := fst (swap_all L xb yb fls fld {| m_s := m; m_d := m; m_same := true |} (seq 0 n)) in
    (forall a, m_s x' a = m_d x' a) /\
    elem_at L (m_d x') sa td /\ elem_at L (m_d x') da ts /\
    (forall y, ~ (sa <= y < sa + len) -> ~ (da <= y < da + len) -> m_d x' y = m y).
  Proof using Hwf Hts Htd Hcn Hsa Hda Hes Hdisj Hed.
    cbv zeta. destruct (ref_swap_exchanges L Hwf ts td fcs fcd Hts Htd Hcn m m sa da Hsa Hda Hes Hed xb yb) as (H1 & H2 & H3 & _).
    destruct (glued _ _ (proj1 (swap_same_is_glued xb yb)) H2) as (G1 & G2 & G3).
    split; [exact G1|]. split; [|split; [exact G2|]].
    - apply (elem_at_ext L Hwf _ _ sa td fcd Htd) with (2 := H1).
      intros z Hz. rewrite (elem_end_cnts L sa ts td Hcn) in Hz.
      apply G3. unfold len. lia.
    - intros z Hz1 Hz2. rewrite (G3 z Hz2). apply H3. exact Hz1.
  Qed.
End SameVector.

(* v[i] = v[i], v[i] = std::move(v[i]), swap(v[i], v[i]): every step reads bytes and writes them
   back where they came from (the move form does not scribble a self-moved object), so no byte
   changes - whatever the field table, whatever the run table. *)
Section Self.
  Definition selfinv (m : mem) (x : mm) : Prop :=
    m_same x = true /\ (forall z, m_s x z = m_d x z) /\ (forall z, m_d x z = m z).

  Lemma self_wr m x a n : selfinv m x -> selfinv m (wr_d x a (mread (m_s x) a n)).
  Proof.
    intros (Hs & Hsd & Hm). unfold selfinv, wr_d. rewrite Hs. cbn [m_s m_d m_same].
    repeat split; intros z. rewrite mwrite_mread_at.
    destruct (inr a (Z.of_nat n) z); [|apply Hm]. rewrite Z.sub_add, Hsd. apply Hm.
  Qed.

  Lemma self_swap_wr m x a n : selfinv m x ->
    selfinv m (wr_d (wr_s x a (mread (m_d x) a n)) a (mread (m_s x) a n)).
  Proof.
    intros (Hs & Hsd & Hm). unfold selfinv, wr_d, wr_s. cbn [m_s m_d m_same]. rewrite !Hs. cbn [m_s m_d m_same].
    repeat split; intros z. rewrite !mwrite_mread_at.
    destruct (inr a (Z.of_nat n) z); [rewrite Z.sub_add|]; rewrite Hsd; apply Hm.
  Qed.

  Lemma blocks_self (one : mm -> Z * Z -> mm * list ev) m sz n x a :
    (forall x a, selfinv m x -> selfinv m (fst (one x (a, a)))) ->
    selfinv m x -> selfinv m (fst (steps one x (addrs sz a a n))).
  Proof.
    intros Hone. apply steps_inv. intros x' [a' b'] Hin Hx.
    replace b' with a' by (pose proof (proj1 (addrs_in _ _ _ _ _ _ Hin)); lia). apply Hone. exact Hx.
  Qed.

  Lemma selfinv_unchanged m x : selfinv m x -> (forall z, m_s x z = m z) /\ (forall z, m_d x z = m z).
  Proof. intros (_ & H1 & H2). split; intros z; [rewrite H1|]; apply H2. Qed.

  Lemma selfinv_start m : selfinv m {| m_s := m; m_d := m; m_same := true |}.
  Proof. unfold selfinv. cbn [m_s m_d m_same]. auto. Qed.

  Theorem self_assignment_changes_nothing mv L sb db fl m ks :
    let x' := fst (assign_all mv L sb db fl fl {| m_s := m; m_d := m; m_same := true |} ks) in
    (forall z, m_s x' z = m z) /\ (forall z, m_d x' z = m z).
  Proof.
    apply selfinv_unchanged. rewrite assign_all_steps. apply steps_inv; [|apply selfinv_start].
    intros x k _ Hx. unfold assign_one.
    destruct (nth k (runs_asg mv L) RSkip); [exact Hx| |apply self_wr; exact Hx].
    rewrite assign_objs_steps. apply blocks_self; [|exact Hx].
    intros x' a Hx'. cbn [assign_obj fst]. rewrite (proj1 Hx'), Z.eqb_refl, andb_false_r. apply self_wr. exact Hx'.
  Qed.

  Theorem self_swap_changes_nothing L xb yb fl m ks :
    let x' := fst (swap_all L xb yb fl fl {| m_s := m; m_d := m; m_same := true |} ks) in
    (forall z, m_s x' z = m z) /\ (forall z, m_d x' z = m z).
  Proof.
    apply selfinv_unchanged. rewrite swap_all_steps. apply steps_inv; [|apply selfinv_start].
    intros x k _ Hx. unfold swap_one.
    destruct (nth k (runs_swp L) RSkip); [exact Hx| |apply self_swap_wr; exact Hx].
    rewrite swap_objs_steps. apply blocks_self; [|exact Hx]. intros x' a. apply self_swap_wr.
  Qed.
End Self.
