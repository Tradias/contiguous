(* Ordered.v — where the elements of a vector lie (C04, C05).  [elems_ordered]: increasing,
   storage-aligned, pairwise disjoint offsets; [elems_tight]: every element at the first aligned
   address behind its predecessor, which implies the former for well-formed tuples.  Then the
   element-wise view of a represented state, and [packed], the locator-free part of the
   invariant, with the introduction rules of [RepO]: one per locator, and one slot by slot. *)
From Coq Require Import ZArith Lia List.
From Cntgs Require Import ListAux BaseLemmas Layout LayoutThm Mem Vector Spec Rep ElemLemmas.
Import ListNotations.
Local Open Scope Z_scope.

Section Ordered.
  Variable L : list param.
  Variable fc : list Z.
  Hypothesis Hwf : wf_plist L = true.

  Lemma elem_end_ge a t : a <= elem_end L a t.
  Proof. apply place_from_end_ge; [apply wf_plist_Forall; exact Hwf|apply cnts_of_nonneg]. Qed.

  Lemma elem_end_shift a t d : (SA L | d) -> elem_end L (a + d) t = elem_end L a t + d.
  Proof. intros Hd. apply place_shift_snd; assumption. Qed.

  Lemma elem_end_translate a b t : (SA L | a) -> (SA L | b) -> elem_end L b t = b + (elem_end L a t - a).
  Proof.
    intros Ha Hb. replace b with (a + (b - a)) at 1 by lia. rewrite elem_end_shift; [lia|].
    apply Z.divide_sub_r; assumption.
  Qed.

  Lemma elem_end_cnts a t t' : cnts_of t' = cnts_of t -> elem_end L a t' = elem_end L a t.
  Proof. intros H. unfold elem_end. rewrite H. reflexivity. Qed.

  (* end of the last element, or [lo] when there is none *)
  Fixpoint eo_end (lo : Z) (offs : list Z) (l : list tuple) : Z :=
    match offs, l with
    | a :: offs', t :: l' => eo_end (elem_end L a t) offs' l'
    | _, _ => lo
    end.

  Lemma eo_length lo offs l hi : elems_ordered L lo offs l hi -> length offs = length l.
  Proof.
    revert lo l. induction offs as [|a offs IH]; intros lo [|t l] H; cbn in *; try contradiction; auto.
    destruct H as (_ & _ & H). f_equal. eapply IH; eauto.
  Qed.

  Lemma eo_end_le lo offs l hi : elems_ordered L lo offs l hi -> lo <= eo_end lo offs l <= hi.
  Proof.
    revert lo l. induction offs as [|a offs IH]; intros lo [|t l] H; cbn in *; try contradiction; [lia|].
    destruct H as (H1 & H2 & H). specialize (IH _ _ H). pose proof (elem_end_ge a t). lia.
  Qed.

  Lemma eo_weaken_lo lo lo' offs l hi : elems_ordered L lo offs l hi -> lo' <= lo -> elems_ordered L lo' offs l hi.
  Proof.
    destruct offs as [|a offs]; destruct l as [|t l]; cbn; try contradiction; [lia|].
    intros (H1 & H2 & H) Hl. repeat split; auto. lia.
  Qed.

  Lemma eo_tight lo offs l hi : elems_ordered L lo offs l hi -> elems_ordered L lo offs l (eo_end lo offs l).
  Proof.
    revert lo l. induction offs as [|a offs IH]; intros lo [|t l] H; cbn in *; try contradiction; [lia|].
    destruct H as (H1 & H2 & H). repeat split; auto.
  Qed.

  Lemma eo_bounds lo offs l hi : elems_ordered L lo offs l hi ->
    Forall2 (fun a t => lo <= a /\ (SA L | a) /\ elem_end L a t <= hi) offs l.
  Proof.
    revert lo l. induction offs as [|a offs IH]; intros lo [|t l] H; cbn in *; try contradiction; [constructor|].
    destruct H as (H1 & H2 & H). pose proof (eo_end_le _ _ _ _ H) as Hle. constructor.
    - repeat split; auto. lia.
    - specialize (IH _ _ H). eapply Forall2_impl_; [|exact IH]. intros x y (A & B & C).
      pose proof (elem_end_ge a t). repeat split; auto. lia.
  Qed.

  Lemma eo_end_shift lo offs l d : (SA L | d) -> length offs = length l ->
    eo_end (lo + d) (map (fun x => x + d) offs) l = eo_end lo offs l + d.
  Proof.
    intros Hd. revert lo l. induction offs as [|a offs IH]; intros lo [|t l] Hl; cbn in *; try discriminate; [reflexivity|].
    rewrite elem_end_shift by auto. apply IH. lia.
  Qed.

  Lemma eo_skipn n lo offs l hi : elems_ordered L lo offs l hi ->
    elems_ordered L (eo_end lo (firstn n offs) (firstn n l)) (skipn n offs) (skipn n l) hi.
  Proof.
    revert lo offs l. induction n as [|n IH]; intros lo [|a offs] [|t l] H; cbn in *; try contradiction; try lia; [exact H|].
    apply IH, H.
  Qed.

  Lemma eo_end_firstn_le n lo offs l hi : elems_ordered L lo offs l hi -> (n < length offs)%nat ->
    eo_end lo (firstn n offs) (firstn n l) <= nth n offs 0 /\ (SA L | nth n offs 0).
  Proof.
    revert lo offs l. induction n as [|n IH]; intros lo [|a offs] [|t l] H Hn; cbn in *; try contradiction; try lia; [tauto|].
    apply IH; [apply H|lia].
  Qed.

  Lemma eo_end_firstn_S : forall k lo offs l, length offs = length l -> (k < length offs)%nat ->
    eo_end lo (firstn (S k) offs) (firstn (S k) l) = elem_end L (nth k offs 0) (nth k l []).
  Proof.
    induction k as [|k IH]; intros lo [|a offs] [|t l] Hl Hk; cbn [length] in *; try lia; try discriminate.
    - cbn. destruct offs, l; reflexivity.
    - apply IH; lia.
  Qed.

  Lemma first_align_idem x : first_align L (first_align L x) = first_align L x.
  Proof.
    unfold first_align, align_if. destruct (_ <? _); [|reflexivity].
    apply align_up_id; [|apply align_up_div]; apply SA_pos; exact Hwf.
  Qed.

  Lemma et_length lo offs l hi : elems_tight L lo offs l hi -> length offs = length l.
  Proof.
    revert lo l. induction offs as [|a offs IH]; intros lo [|t l] H; cbn [elems_tight length] in *; try contradiction; auto.
    destruct H as (_ & H). f_equal. eapply IH; eauto.
  Qed.

  Lemma et_hi lo offs l hi : elems_tight L lo offs l hi ->
    hi = eo_end lo offs l \/ hi = first_align L (eo_end lo offs l).
  Proof.
    revert lo l. induction offs as [|a offs IH]; intros lo [|t l] H; cbn [elems_tight eo_end] in *; try contradiction; [exact H|].
    apply IH, H.
  Qed.

  (* hence [elems_ordered] never has to be shown beside [elems_tight] *)
  Lemma et_ordered lo offs l hi : Forall (tuple_ok L fc 0) l -> 0 <= lo -> (SA L | first_align L lo) ->
    elems_tight L lo offs l hi -> elems_ordered L lo offs l hi /\ (SA L | first_align L hi).
  Proof.
    revert lo l. induction offs as [|a offs IH]; intros lo [|t l] Ht Hlo Hal H; cbn [elems_tight elems_ordered] in *; try contradiction;
      pose proof (first_align_ge L lo Hwf) as Hge.
    - destruct H as [->| ->]; [split; [lia|exact Hal]|]. split; [exact Hge|]. rewrite first_align_idem. exact Hal.
    - destruct H as (-> & H). inversion Ht as [|? ? Ht1 Ht2]; subst.
      pose proof (elem_end_ge (first_align L lo) t) as Hee.
      destruct (IH (elem_end L (first_align L lo) t) l Ht2 ltac:(lia)) as [Ho Hh]; [|exact H|repeat split; assumption].
      apply first_align_end; [exact Hwf|exact (tuple_ok_cnt_ok L _ _ _ Ht1)|lia|exact Hal].
  Qed.

  Lemma et_snoc lo offs l hi a t hi' : elems_tight L lo offs l hi -> a = first_align L hi ->
    hi' = elem_end L a t \/ hi' = first_align L (elem_end L a t) ->
    elems_tight L lo (offs ++ [a]) (l ++ [t]) hi'.
  Proof.
    revert lo l. induction offs as [|b offs IH]; intros lo [|u l] H Ha Hh; cbn [elems_tight app] in *; try contradiction.
    - split; [|exact Hh]. destruct H as [->| ->]; [exact Ha|]. rewrite Ha. apply first_align_idem.
    - destruct H as (H1 & H). split; [exact H1|]. apply IH; auto.
  Qed.

  Lemma et_nth n lo offs l hi : elems_tight L lo offs l hi -> (n < length offs)%nat ->
    nth n offs 0 = first_align L (eo_end lo (firstn n offs) (firstn n l)).
  Proof.
    revert lo offs l. induction n as [|n IH]; intros lo [|a offs] [|t l] H Hn; cbn [elems_tight nth firstn eo_end length] in *; try contradiction; try lia.
    destruct H as (_ & H). apply IH; auto. lia.
  Qed.

  Lemma et_firstn n lo offs l hi : elems_tight L lo offs l hi -> (n < length offs)%nat ->
    elems_tight L lo (firstn n offs) (firstn n l) (nth n offs 0).
  Proof.
    revert lo offs l. induction n as [|n IH]; intros lo [|a offs] [|t l] H Hn; cbn [elems_tight nth firstn length] in *; try contradiction; try lia.
    destruct H as (H1 & H). split; [exact H1|]. apply IH; auto. lia.
  Qed.

  Lemma et_skipn n lo offs l hi : elems_tight L lo offs l hi ->
    elems_tight L (eo_end lo (firstn n offs) (firstn n l)) (skipn n offs) (skipn n l) hi.
  Proof.
    revert lo offs l. induction n as [|n IH]; intros lo offs l H; [exact H|].
    destruct offs as [|a offs]; destruct l as [|t l]; cbn [elems_tight firstn skipn eo_end] in *; try contradiction; [exact H|].
    apply IH, H.
  Qed.

  Lemma et_shift lo offs l hi d : (SA L | d) -> elems_tight L lo offs l hi ->
    elems_tight L (lo + d) (map (fun x => x + d) offs) l (hi + d).
  Proof.
    intros Hd. revert lo l. induction offs as [|a offs IH]; intros lo [|t l] H; cbn [elems_tight map] in *; try contradiction.
    - rewrite first_align_shift by auto. lia.
    - destruct H as (H1 & H). split; [rewrite first_align_shift by auto; lia|].
      rewrite elem_end_shift by auto. apply IH. exact H.
  Qed.

  Lemma et_app lo o1 l1 h1 a o2 t l2 hi : elems_tight L lo o1 l1 h1 ->
    elems_tight L (eo_end lo o1 l1) (a :: o2) (t :: l2) hi ->
    elems_tight L lo (o1 ++ a :: o2) (l1 ++ t :: l2) hi.
  Proof.
    revert lo l1. induction o1 as [|b o1 IH]; intros lo [|u l1] H1 H2; cbn [app] in *; try (cbn [elems_tight] in H1; contradiction).
    - exact H2.
    - destruct H1 as (E & H1). split; [exact E|]. apply IH; auto.
  Qed.

  Lemma stride_slot st k : stride_ok L fc st -> 0 <= st * Z.of_nat k /\ (SA L | st * Z.of_nat k).
  Proof. intros (H0 & Hd & _). split; [apply Z.mul_nonneg_nonneg; lia|apply Z.divide_mul_l; exact Hd]. Qed.

  Lemma stride_next st k t : stride_ok L fc st -> tuple_ok L fc 0 t ->
    first_align L (elem_end L (st * Z.of_nat k) t) = st * Z.of_nat (S k).
  Proof.
    intros Hst Ht. destruct (stride_slot st k Hst) as [A B]. destruct Hst as (_ & _ & Hfit).
    rewrite (proj2 (Hfit t _ Ht A B)). lia.
  Qed.

  Lemma et_stride st : stride_ok L fc st -> forall offs l lo hi k, Forall (tuple_ok L fc 0) l ->
    elems_tight L lo offs l hi -> first_align L lo = st * Z.of_nat k ->
    offs = map (fun i => st * Z.of_nat i) (seq k (length l)).
  Proof.
    intros Hst. induction offs as [|a offs IH]; intros [|t l] lo hi k Ht H Hk;
      cbn [elems_tight length seq map] in *; try contradiction; [reflexivity|].
    destruct H as (-> & H). inversion Ht as [|? ? Ht1 Ht2]; subst. rewrite Hk in *. f_equal.
    apply (IH l _ hi (S k) Ht2 H). apply stride_next; assumption.
  Qed.

  Lemma et_slots st : stride_ok L fc st -> forall l lo k, Forall (tuple_ok L fc 0) l ->
    first_align L lo = st * Z.of_nat k ->
    elems_tight L lo (map (fun i => st * Z.of_nat i) (seq k (length l))) l (st * Z.of_nat (k + length l)).
  Proof.
    intros Hst. induction l as [|t l IH]; intros lo k Ht Hk; cbn [length seq map elems_tight].
    - right. rewrite Nat.add_0_r. symmetry. exact Hk.
    - inversion Ht as [|? ? Ht1 Ht2]; subst. split; [symmetry; exact Hk|].
      rewrite Nat.add_succ_r, <- Nat.add_succ_l. apply IH; [exact Ht2|]. apply stride_next; assumption.
  Qed.
End Ordered.

Section RepView.
  Variable L : list param.
  Hypothesis Hwf : wf_plist L = true.

  Lemma rep_len v l offs : RepO L v l offs -> length offs = length l.
  Proof. intros R. exact (eo_length L _ _ _ _ (r_order _ _ _ _ R)). Qed.

  Lemma rep_addr v l offs i : RepO L v l offs -> (i < length l)%nat -> eaddr L v (Z.of_nat i) = nth i offs 0.
  Proof.
    intros R Hi. pose proof (r_loc _ _ _ _ R) as Hl. unfold eaddr. destruct (has_varying L).
    - destruct Hl as (_ & _ & Hs & _). unfold slotv, slot. rewrite Nat2Z.id.
      rewrite <- (nth_firstn_ _ (length l)) by lia. rewrite Hs.
      rewrite (nth_indep _ None (Some 0)) by (rewrite map_length, (rep_len v l offs R); lia).
      rewrite (map_nth Some offs 0 i). reflexivity.
    - destruct Hl as (_ & -> & _). symmetry. apply nth_map_seq. exact Hi.
  Qed.

  Lemma rep_nth v l offs i : RepO L v l offs -> (i < length l)%nat ->
    let a := nth i offs 0 in let t := nth i l [] in
    0 <= a /\ (SA L | a) /\ elem_end L a t <= dend L v /\
    tuple_ok L (fixed_counts L (v_fixed v)) 0 t /\ elem_at L (v_mem v) a t.
  Proof.
    intros R Hi. pose proof (rep_len v l offs R) as Hlen.
    pose proof (Forall2_nth_ _ offs l 0 [] i (eo_bounds L Hwf _ _ _ _ (r_order _ _ _ _ R)) ltac:(lia)) as (A & B & C).
    repeat split; try assumption.
    - exact (proj1 (Forall_nth _ l) (r_tuples _ _ _ _ R) i [] Hi).
    - apply (Forall2_nth_ _ offs l 0 [] i (r_elems _ _ _ _ R)). lia.
  Qed.

  Lemma eo_pair : forall offs lo l hi, elems_ordered L lo offs l hi ->
    forall a b, (a < b < length offs)%nat -> elem_end L (nth a offs 0) (nth a l []) <= nth b offs 0.
  Proof.
    induction offs as [|x offs IH]; intros lo l hi H a b Hab; [cbn [length] in Hab; lia|].
    destruct l as [|t l]; cbn [elems_ordered] in H; [contradiction|]. destruct H as (H1 & H2 & H3).
    destruct b as [|b]; [lia|]. destruct a as [|a]; cbn [nth].
    - pose proof (eo_bounds L Hwf _ _ _ _ H3) as Hb.
      pose proof (Forall2_nth_ _ offs l 0 [] b Hb ltac:(cbn [length] in Hab; lia)) as Hn. cbn beta in Hn. lia.
    - apply (IH _ _ _ H3). cbn [length] in Hab. lia.
  Qed.

  Lemma rep_pair v l offs i j : RepO L v l offs -> (i < j < length l)%nat ->
    elem_end L (nth i offs 0) (nth i l []) <= nth j offs 0.
  Proof. intros R Hij. apply (eo_pair _ _ _ _ (r_order _ _ _ _ R)). rewrite (rep_len v l offs R). exact Hij. Qed.

  Lemma rep_offs_le v l offs i j : RepO L v l offs -> (i <= j < length l)%nat -> nth i offs 0 <= nth j offs 0.
  Proof.
    intros R [Hij Hj]. destruct (proj1 (Nat.lt_eq_cases i j) Hij) as [Hlt| ->]; [|apply Z.le_refl].
    exact (Z.le_trans _ _ _ (elem_end_ge L Hwf _ _) (rep_pair v l offs i j R (conj Hlt Hj))).
  Qed.

  Lemma load_table fixed m a t : tuple_ok L (fixed_counts L fixed) 0 t -> elem_at L m a t ->
    fst (load L fixed m a) = combine (fst (place L (cnts_of t) a)) (cnts_of t).
  Proof.
    intros Ht He. unfold load, place.
    rewrite (load_from_spec L (prevs L) _ m a t 0 0 false (wf_plist_Forall L Hwf)); auto.
    - apply wf_plist_varying; exact Hwf.
    - destruct L; auto.
  Qed.

  (* [ms] is the memory in the middle of a loop over the elements (destruction, relocation):
     other elements may have been overwritten, element i is still what the vector holds *)
  Lemma rep_elem_view v l offs i ms : RepO L v l offs -> (i < length l)%nat ->
    let a := nth i offs 0 in let t := nth i l [] in
    (forall x, a <= x < elem_end L a t -> ms x = v_mem v x) ->
    eaddr L (set_mem v ms) (Z.of_nat i) = a /\
    fst (load L (v_fixed v) ms a) = combine (fst (place L (cnts_of t) a)) (cnts_of t) /\
    elem_at L ms a t /\
    ordered_from a (extents L (cnts_of t) (fst (place L (cnts_of t) a))) (elem_end L a t).
  Proof.
    intros R Hi. cbv zeta. intros Hms.
    destruct (rep_nth v l offs i R Hi) as (A & B & C & Ht & He).
    assert (He' : elem_at L ms (nth i offs 0) (nth i l [])).
    { eapply elem_from_ext; eauto. apply wf_plist_Forall; exact Hwf. }
    repeat split.
    - exact (rep_addr v l offs i R Hi).
    - apply (load_table (v_fixed v) ms _ _ Ht He').
    - exact He'.
    - apply (place_ordered L (cnts_of (nth i l [])) (nth i offs 0) Hwf); auto. eapply tuple_ok_cnt_ok; eauto.
  Qed.

  (* well-formed tuples stored at tightly packed offsets, the data ending at [hi]; the operations
     are first understood on this, then the locator (address table, or count and stride) follows *)
  Definition packed (fc : list Z) (m : mem) (offs : list Z) (l : list tuple) (hi : Z) : Prop :=
    Forall (tuple_ok L fc 0) l /\ Forall2 (fun a t => elem_at L m a t) offs l /\ elems_tight L 0 offs l hi.

  Lemma packed_ordered fc m offs l hi : packed fc m offs l hi ->
    elems_ordered L 0 offs l hi /\ (SA L | first_align L hi).
  Proof.
    intros (Ht & _ & H). apply (et_ordered L fc Hwf); auto; [lia|].
    rewrite (first_align_0 L Hwf). apply Z.divide_0_r.
  Qed.

  Lemma rep_packed v l offs : RepO L v l offs -> packed (fixed_counts L (v_fixed v)) (v_mem v) offs l (dend L v).
  Proof. intros R. exact (conj (r_tuples _ _ _ _ R) (conj (r_elems _ _ _ _ R) (r_tight _ _ _ _ R))). Qed.

  Lemma RepO_tbl v l offs : has_varying L = true ->
    packed (fixed_counts L (v_fixed v)) (v_mem v) offs l (v_last v) -> Z.of_nat (length l) <= v_cap v ->
    t_size (v_tbl v) = Z.of_nat (length l) -> Z.of_nat (length (t_slots (v_tbl v))) = v_cap v ->
    firstn (length l) (t_slots (v_tbl v)) = map Some offs ->
    RepO L v l offs.
  Proof.
    intros Hv P Hc Hsz Hsl Hfs. destruct (packed_ordered _ _ _ _ _ P) as [Ho Ha]. destruct P as (Ht & He & Hti).
    constructor; auto; unfold dend; rewrite Hv; auto.
  Qed.

  (* the offsets need not be given as multiples of the stride: tight packing makes them so *)
  Lemma RepO_fix v l offs : has_varying L = false ->
    packed (fixed_counts L (v_fixed v)) (v_mem v) offs l (v_stride v * v_count v) -> Z.of_nat (length l) <= v_cap v ->
    v_count v = Z.of_nat (length l) -> stride_ok L (fixed_counts L (v_fixed v)) (v_stride v) ->
    RepO L v l offs.
  Proof.
    intros Hv P Hc Hn Hst. destruct (packed_ordered _ _ _ _ _ P) as [Ho _]. destruct P as (Ht & He & Hti).
    constructor; auto; unfold dend; rewrite Hv; auto. split; [exact Hn|split; [|exact Hst]].
    apply (et_stride L _ _ Hst offs l 0 _ 0%nat Ht Hti). rewrite Z.mul_0_r. exact (first_align_0 L Hwf).
  Qed.

  Lemma RepO_slots v l : has_varying L = false ->
    stride_ok L (fixed_counts L (v_fixed v)) (v_stride v) -> Forall (tuple_ok L (fixed_counts L (v_fixed v)) 0) l ->
    v_count v = Z.of_nat (length l) -> Z.of_nat (length l) <= v_cap v ->
    (forall k, (k < length l)%nat -> elem_at L (v_mem v) (v_stride v * Z.of_nat k) (nth k l [])) ->
    RepO L v l (map (fun i => v_stride v * Z.of_nat i) (seq 0 (length l))).
  Proof.
    intros Hv Hst Ht Hn Hc He. apply RepO_fix; auto. split; [exact Ht|split].
    - apply (Forall2_of_nth _ 0 ([] : tuple)); [rewrite map_length, seq_length; reflexivity|].
      intros k Hk. rewrite map_length, seq_length in Hk. rewrite nth_map_seq by exact Hk. exact (He k Hk).
    - rewrite Hn. apply (et_slots L _ _ Hst l 0 0%nat Ht). rewrite Z.mul_0_r. exact (first_align_0 L Hwf).
  Qed.
End RepView.
