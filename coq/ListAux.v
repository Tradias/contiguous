(* ListAux.v — facts about lists (nth, firstn, skipn, seq, Forall2) and about the model's
   positional update [upd] that the standard library does not provide. *)
From Coq Require Import List Lia ZArith.
From Cntgs Require Import Vector.
Import ListNotations.

Lemma nth_firstn_ {A} (l : list A) n i d : (i < n)%nat -> nth i (firstn n l) d = nth i l d.
Proof.
  revert n i. induction l as [|x l IH]; intros [|n] [|i] H; cbn; auto; try lia. apply IH. lia.
Qed.

Lemma nth_skipn_ {A} (d : A) : forall n k (l : list A), nth k (skipn n l) d = nth (n + k) l d.
Proof.
  induction n as [|n IH]; intros k l; [reflexivity|]. destruct l as [|x l]; [destruct k; reflexivity|].
  cbn [skipn Nat.add nth]. apply IH.
Qed.

Lemma skipn_nth_cons {A} (d : A) : forall i (l : list A), (i < length l)%nat -> skipn i l = nth i l d :: skipn (S i) l.
Proof.
  induction i as [|i IH]; intros [|x l] Hl; cbn [length] in Hl; try lia; [reflexivity|].
  cbn [skipn nth]. apply IH. lia.
Qed.

Lemma skipn_skipn_ {A} : forall y x (l : list A), skipn x (skipn y l) = skipn (x + y) l.
Proof.
  induction y as [|y IH]; intros x l; [rewrite Nat.add_0_r; reflexivity|]. rewrite Nat.add_succ_r.
  destruct l as [|a l]; [rewrite !skipn_nil; reflexivity|]. cbn [skipn]. apply IH.
Qed.

Lemma In_firstn_ {A} (l : list A) n x : In x (firstn n l) -> In x l.
Proof. revert n. induction l as [|y l IH]; intros [|n]; cbn; auto; try tauto. intros [->|H]; eauto. Qed.

Lemma In_skipn_ {A} (l : list A) n x : In x (skipn n l) -> In x l.
Proof. revert n. induction l as [|y l IH]; intros [|n]; cbn; auto. intros H. right. eauto. Qed.

Lemma firstn_firstn_le_ {A} (l : list A) n k : (n <= k)%nat -> firstn n (firstn k l) = firstn n l.
Proof. intros H. rewrite firstn_firstn. now rewrite Nat.min_l. Qed.

Lemma last_cons_ {A} : forall (l : list A) x d, last (x :: l) d = last l x.
Proof.
  induction l as [|y l IH]; intros x d; [reflexivity|].
  change (last (x :: y :: l) d) with (last (y :: l) d). rewrite (IH y d), (IH y x). reflexivity.
Qed.

Lemma skipn_seq_ n : forall s k, skipn k (seq s n) = seq (s + k) (n - k).
Proof.
  induction n as [|n IH]; intros s [|k]; cbn [seq skipn Nat.sub]; try reflexivity.
  - now rewrite Nat.add_0_r.
  - rewrite IH. f_equal. lia.
Qed.

Lemma firstn_seq_ : forall k a n, (k <= n)%nat -> firstn k (seq a n) = seq a k.
Proof.
  induction k as [|k IH]; intros a n Hk; [reflexivity|].
  destruct n as [|n]; [lia|]. cbn [seq firstn]. rewrite IH by lia. reflexivity.
Qed.

Lemma nth_map_seq (f : nat -> Z) n i : (i < n)%nat -> nth i (map f (seq 0 n)) 0%Z = f i.
Proof.
  intros Hi. rewrite (nth_indep _ 0%Z (f 0%nat)) by (rewrite map_length, seq_length; lia).
  rewrite (map_nth f (seq 0 n) 0%nat i), seq_nth by lia. reflexivity.
Qed.

Lemma map_fst_combine_ {A B} : forall (l1 : list A) (l2 : list B),
  length l1 = length l2 -> map fst (combine l1 l2) = l1.
Proof.
  induction l1 as [|x l1 IH]; intros [|y l2] H; cbn [combine map]; try discriminate; [reflexivity|].
  cbn [fst]. f_equal. apply IH. cbn [length] in H. lia.
Qed.

Lemma map_snd_combine {A B} : forall (l1 : list A) (l2 : list B),
  length l1 = length l2 -> map snd (combine l1 l2) = l2.
Proof.
  induction l1 as [|x l1 IH]; intros [|y l2] H; cbn [combine map]; try discriminate; [reflexivity|].
  cbn [snd]. f_equal. apply IH. cbn [length] in H. lia.
Qed.

Lemma Forall_firstn_ {A} (P : A -> Prop) n l : Forall P l -> Forall P (firstn n l).
Proof. intros H. rewrite <- (firstn_skipn n l) in H. apply Forall_app in H. tauto. Qed.

Lemma Forall_skipn_ {A} (P : A -> Prop) n l : Forall P l -> Forall P (skipn n l).
Proof. intros H. rewrite <- (firstn_skipn n l) in H. apply Forall_app in H. tauto. Qed.

Lemma forallb_ext_in_ {X} (f g : X -> bool) l : (forall x, In x l -> f x = g x) -> forallb f l = forallb g l.
Proof.
  induction l as [|x l IH]; intros H; [reflexivity|]. cbn [forallb].
  rewrite (H x (or_introl eq_refl)), IH; [reflexivity|]. intros y Hy. apply H. right. exact Hy.
Qed.

Lemma NoDup_app_ {A} (l l' : list A) : NoDup l -> NoDup l' -> (forall x, In x l -> ~ In x l') -> NoDup (l ++ l').
Proof.
  induction 1 as [|x l Hx _ IH]; intros H' Hd; [exact H'|]. cbn [app]. constructor.
  - rewrite in_app_iff. intros [Hin|Hin]; [exact (Hx Hin)|exact (Hd x (or_introl eq_refl) Hin)].
  - apply IH; [exact H'|]. intros y Hy. apply Hd. right. exact Hy.
Qed.

Lemma Forall2_impl_ {A B} (P Q : A -> B -> Prop) l1 l2 :
  (forall a b, P a b -> Q a b) -> Forall2 P l1 l2 -> Forall2 Q l1 l2.
Proof. intros H. induction 1; constructor; auto. Qed.

Lemma Forall2_len {X Y} (P : X -> Y -> Prop) : forall (l1 : list X) (l2 : list Y), Forall2 P l1 l2 -> length l1 = length l2.
Proof. induction 1; cbn [length]; congruence. Qed.

Lemma Forall2_firstn_ {A B} (P : A -> B -> Prop) l1 l2 n : Forall2 P l1 l2 -> Forall2 P (firstn n l1) (firstn n l2).
Proof. intros H. revert n. induction H; intros [|n]; cbn; constructor; auto. Qed.

Lemma Forall2_skipn_ {A B} (P : A -> B -> Prop) l1 l2 n : Forall2 P l1 l2 -> Forall2 P (skipn n l1) (skipn n l2).
Proof. intros H. revert n. induction H; intros [|n]; cbn; try constructor; auto. Qed.

Lemma Forall2_nth_ {X Y} (P : X -> Y -> Prop) : forall (l1 : list X) (l2 : list Y) d1 d2 i,
  Forall2 P l1 l2 -> (i < length l1)%nat -> P (nth i l1 d1) (nth i l2 d2).
Proof.
  induction l1 as [|x l1 IH]; intros l2 d1 d2 i H Hi; [cbn [length] in Hi; lia|].
  inversion H as [|? y ? l2' Hxy Hr]; subst. destruct i as [|i]; cbn [nth]; [exact Hxy|].
  apply IH; [exact Hr|cbn [length] in Hi; lia].
Qed.

Lemma Forall2_of_nth {X Y} (P : X -> Y -> Prop) d1 d2 : forall (l1 : list X) (l2 : list Y),
  length l1 = length l2 -> (forall k, (k < length l1)%nat -> P (nth k l1 d1) (nth k l2 d2)) -> Forall2 P l1 l2.
Proof.
  induction l1 as [|x l1 IH]; intros [|y l2] Hl H; cbn [length] in Hl; try discriminate; constructor.
  - exact (H O ltac:(cbn [length]; lia)).
  - apply IH; [lia|]. intros k Hk. exact (H (S k) ltac:(cbn [length]; lia)).
Qed.

Lemma Forall_of_nth {X} (P : X -> Prop) d : forall (l : list X),
  (forall k, (k < length l)%nat -> P (nth k l d)) -> Forall P l.
Proof.
  induction l as [|x l IH]; intros H; constructor.
  - exact (H O ltac:(cbn [length]; lia)).
  - apply IH. intros k Hk. exact (H (S k) ltac:(cbn [length]; lia)).
Qed.

Lemma upd_length {A} : forall n (x : A) l, length (upd n x l) = length l.
Proof. induction n as [|n IH]; intros x [|y l]; cbn [upd length]; auto. Qed.

Lemma upd_nth_same {A} (d : A) : forall n x (l : list A), (n < length l)%nat -> nth n (upd n x l) d = x.
Proof.
  induction n as [|n IH]; intros x [|y l] H; cbn [upd nth length] in *; try lia; [reflexivity|].
  apply IH. lia.
Qed.

Lemma upd_nth_other {A} (d : A) : forall n k x (l : list A), n <> k -> nth k (upd n x l) d = nth k l d.
Proof.
  induction n as [|n IH]; intros [|k] x [|y l] H; cbn [upd nth]; try reflexivity; try congruence.
  apply IH. congruence.
Qed.

Lemma upd_nth {X} (d : X) n x (l : list X) k : (n < length l)%nat ->
  nth k (upd n x l) d = if Nat.eqb k n then x else nth k l d.
Proof.
  intros Hn. destruct (Nat.eqb_spec k n) as [->|Hne].
  - apply upd_nth_same. exact Hn.
  - apply upd_nth_other. congruence.
Qed.

Lemma upd_firstn_snoc {A} (l : list A) x : forall n, (n < length l)%nat ->
  firstn (S n) (upd n x l) = firstn n l ++ [x].
Proof.
  induction l as [|y l IH]; intros [|n] H; cbn in *; try lia; auto.
  f_equal. apply IH. lia.
Qed.

Lemma firstn_upd_ge {A} (l : list A) x : forall n k, (k <= n)%nat -> firstn k (upd n x l) = firstn k l.
Proof.
  induction l as [|y l IH]; intros [|n] [|k] H; cbn; auto; try lia. f_equal. apply IH. lia.
Qed.

Lemma upd_nth_inv {X} (d : X) n x (l : list X) k r : (n < length l)%nat ->
  nth k (upd n x l) d = r -> (k = n /\ r = x) \/ (k <> n /\ nth k l d = r).
Proof.
  intros Hn. rewrite (upd_nth d n x l k Hn). destruct (Nat.eqb_spec k n); intros <-; auto.
Qed.
