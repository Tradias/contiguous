(* Footprint.v — how much memory the operations that (re)allocate make a vector consume (C05,
   third clause): reserve beyond capacity on a list with a VaryingSize parameter requests
   exactly what a freshly constructed vector of that capacity, byte budget and fixed sizes
   requests; copy construction and copy assignment request what the source consumes; stealing
   move assignment takes over the source's block; no other operation changes the consumption
   (they keep v_units: StableThm.vstep_shape), except element-wise move assignment into a smaller
   vector (move_assign_footprint_refuted).  Last: reserve on a list without VaryingSize parameter
   (reserve_footprint_fixed). *)
From Coq Require Import ZArith Lia List.
From Cntgs Require Import BaseLemmas Layout LayoutThm EsizeThm Mem Vector World.
Import ListNotations.
Local Open Scope Z_scope.

Theorem reserve_footprint_varying L v n b junk bid tbid aid junk' bid' tbid' :
  has_varying L = true -> v_cap v < n ->
  consumption L (fst (reserve L v n b junk bid tbid)) =
  consumption L (fst (mkvec L n b (v_fixed v) aid junk' bid' tbid')).
Proof.
  intros Hv Hn. unfold reserve, mkvec, consumption.
  replace (v_cap v <? n) with true by (symmetry; apply Z.ltb_lt; exact Hn). rewrite Hv.
  destruct (insert_into true true L v bid junk) as [[v1 m] e1]. reflexivity.
Qed.

Theorem reserve_within_capacity_footprint L v n b junk bid tbid : n <= v_cap v ->
  consumption L (fst (reserve L v n b junk bid tbid)) = consumption L v.
Proof.
  intros Hn. unfold reserve. replace (v_cap v <? n) with false by (symmetry; apply Z.ltb_ge; exact Hn). reflexivity.
Qed.

Theorem copy_footprint K L d src junk nb :
  consumption L (fst (fst (fst (copy_ctor K L src junk nb)))) = consumption L src /\
  consumption L (fst (fst (fst (copy_assign K L d src junk nb)))) = consumption L src.
Proof.
  unfold copy_ctor, copy_assign, consumption.
  destruct (insert_into false false L src nb junk) as [[s1 m] e1].
  destruct (if all_dtriv L then (d, []) else destruct_range L d 0 (Z.to_nat (vsize L d))) as [d1 e2].
  split; reflexivity.
Qed.

Theorem steal_footprint K L d src :
  consumption L (fst (fst (steal K L d src))) = consumption L src.
Proof.
  unfold steal, consumption.
  destruct (if all_dtriv L then (d, []) else destruct_range L d 0 (Z.to_nat (vsize L d))) as [d1 e1]. reflexivity.
Qed.

(* element-wise move assignment into a smaller vector (unequal, non-propagating allocators): the
   library passes memory_consumption() BYTES where storage UNITS are expected
   (vector.hpp:497), so the target ends up consuming SA times what the source consumes - more
   than it consumed before, more than the source, more than a fresh vector of that capacity.
   This is the recorded finding `move-assign-units`; the model reproduces it. *)
Definition fpL : list param := [ {| pk := Plain; psz := 8; pal := 8; pty := TUInt |} ].
Definition fpK : akind := {| pocca := false; pocma := false; pocs := false; always_eq := false; soccc_bump := false |}.
Theorem move_assign_footprint_refuted :
  let d := fst (mkvec fpL 1 0 [] 1 (mfill 170) 0%nat 1%nat) in
  let src := fst (mkvec fpL 2 0 [] 2 (mfill 170) 2%nat 3%nat) in
  let d' := fst (fst (fst (move_assign fpK fpL d src (mfill 170) 4%nat))) in
  consumption fpL d = 8 /\ consumption fpL src = 16 /\
  consumption fpL (fst (mkvec fpL (v_cap src) 0 [] 1 (mfill 170) 5%nat 6%nat)) = 16 /\
  consumption fpL d' = 128.
Proof. vm_compute. repeat split; reflexivity. Qed.

(* reserve of a list WITHOUT VaryingSize parameter asks for stride * n bytes, a fresh vector for
   stride * n - (stride - size): both round to the same number of storage units *)
Lemma units_round L x p : 0 < SA L -> (SA L | x) -> 0 <= p < SA L -> units L (x - p) = units L x.
Proof.
  intros HS [q ->] Hp. unfold units.
  rewrite Z.mod_mul by lia. rewrite Z.div_mul by lia. rewrite Z.eqb_refl.
  destruct (Z.eq_dec p 0) as [->|Hne].
  - rewrite Z.sub_0_r, Z.mod_mul by lia. rewrite Z.div_mul by lia. rewrite Z.eqb_refl. reflexivity.
  - replace (q * SA L - p) with ((SA L - p) + (q - 1) * SA L) by lia.
    rewrite Z.div_add by lia. rewrite Z.mod_add by lia.
    rewrite Z.div_small by lia. rewrite Z.mod_small by lia.
    replace (SA L - p =? 0) with false by (symmetry; apply Z.eqb_neq; lia). lia.
Qed.

Theorem reserve_footprint_fixed L v n junk bid tbid aid junk' bid' tbid' :
  wf_plist L = true -> has_varying L = false -> Forall (fun c => 0 <= c) (fixed_counts L (v_fixed v)) ->
  v_stride v = snd (esize L (v_fixed v)) -> 0 <= v_cap v < n ->
  consumption L (fst (reserve L v n 0 junk bid tbid)) =
  consumption L (fst (mkvec L n 0 (v_fixed v) aid junk' bid' tbid')).
Proof.
  intros Hwf Hv Hfc Hst Hn. unfold reserve, mkvec, consumption.
  replace (v_cap v <? n) with true by (symmetry; apply Z.ltb_lt; lia). rewrite Hv.
  destruct (insert_into true true L v bid junk) as [[v1 m] e1]. cbn [fst v_units]. f_equal.
  unfold needed_grow_fixed, needed. rewrite Hst.
  pose proof (SA_pos L Hwf) as HSp.
  pose proof (esize_stride_align L (v_fixed v) Hwf Hv Hfc) as E2.
  destruct (esize L (v_fixed v)) as [size stride]. cbn [fst snd] in *.
  replace (n =? 0) with false by (symmetry; apply Z.eqb_neq; lia).
  pose proof (align_up_ge size (SA L) HSp) as Hge. rewrite <- E2 in Hge.
  rewrite !Z.add_0_l. symmetry. apply units_round; [exact HSp| |lia].
  apply Z.divide_mul_l. rewrite E2. apply align_up_div. exact HSp.
Qed.
