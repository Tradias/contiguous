(* C16 — no hidden reallocation: addresses are stable until capacity is exceeded. *)
From Coq Require Import ZArith List Lia.
From Cntgs Require Import Layout Vector World Spec Rep StableThm Refine Refine NtRefine LifeHist EmplacePos.
Import ListNotations.
Local Open Scope Z_scope.

(* emplace_back, pop_back, clear: no allocator event, same block, for EVERY parameter list *)
Theorem C16_emplace_back_no_allocation : forall L v t,
  no_alloc (snd (emplace_back L v t)) /\ v_bid (fst (emplace_back L v t)) = v_bid v /\
  v_cap (fst (emplace_back L v t)) = v_cap v.
Proof. exact emplace_back_no_alloc. Qed.
Print Assumptions C16_emplace_back_no_allocation.

Theorem C16_pop_back_no_allocation : forall L v,
  no_alloc (snd (pop_back L v)) /\ v_bid (fst (pop_back L v)) = v_bid v.
Proof. exact pop_back_no_alloc. Qed.
Print Assumptions C16_pop_back_no_allocation.

Theorem C16_clear_no_allocation : forall L v,
  no_alloc (snd (clear L v)) /\ v_bid (fst (clear L v)) = v_bid v.
Proof. exact clear_no_alloc. Qed.
Print Assumptions C16_clear_no_allocation.

(* erase; [all_triv] is not needed, see C16_erase_no_allocation_every_list *)
Theorem C16_erase_no_allocation : forall L v i, all_triv L = true ->
  no_alloc (snd (erase L v i)) /\ v_bid (fst (erase L v i)) = v_bid v.
Proof. intros L v i _. apply erase_no_alloc. Qed.
Print Assumptions C16_erase_no_allocation.

Theorem C16_erase_range_no_allocation : forall L v i j, all_triv L = true ->
  no_alloc (snd (erase_range L v i j)) /\ v_bid (fst (erase_range L v i j)) = v_bid v.
Proof. intros L v i j _. apply erase_range_no_alloc. Qed.
Print Assumptions C16_erase_range_no_allocation.

(* reserve within capacity: nothing at all *)
Theorem C16_reserve_within_capacity : forall L v n b junk bid tbid,
  n <= v_cap v -> reserve L v n b junk bid tbid = (v, []).
Proof. exact reserve_noop. Qed.
Print Assumptions C16_reserve_within_capacity.

(* the elements already stored keep their addresses *)
Theorem C16_emplace_back_addresses_stable : forall L v t i, 0 <= i < vsize L v ->
  eaddr L (fst (emplace_back L v t)) i = eaddr L v i.
Proof. exact emplace_back_addresses_stable. Qed.
Print Assumptions C16_emplace_back_addresses_stable.

Theorem C16_pop_back_addresses_stable : forall L v i, all_triv L = true ->
  eaddr L (fst (pop_back L v)) i = eaddr L v i.
Proof. intros L v i _. apply pop_back_addresses_stable. Qed.
Print Assumptions C16_pop_back_addresses_stable.

(* erase on trivially relocatable lists shifts the tail with move_forward_triv: the elements
   in front of the target position [to] stay where they are *)
Theorem C16_erase_front_addresses_stable : forall L v from to i,
  0 <= i < to -> to <= from -> (Z.to_nat to <= length (t_slots (v_tbl v)))%nat \/ has_varying L = false ->
  eaddr L (fst (move_forward_triv L v from to)) i = eaddr L v i.
Proof. exact move_forward_addresses_stable. Qed.
Print Assumptions C16_erase_front_addresses_stable.

(* swap exchanges ownership of the blocks; in the model swap and move construction are
   exchanges of records that emit no event at all *)
Theorem C16_swap_exchanges_blocks : forall K a b,
  v_bid (fst (swap_vec K a b)) = v_bid b /\ v_bid (snd (swap_vec K a b)) = v_bid a /\
  v_cap (fst (swap_vec K a b)) = v_cap b /\ v_cap (snd (swap_vec K a b)) = v_cap a.
Proof. exact swap_exchanges_blocks. Qed.
Print Assumptions C16_swap_exchanges_blocks.

(* erase and erase(first, last) never call the allocator and keep the block - for EVERY list,
   the element-by-element re-emplacement of non-trivial lists included *)
Theorem C16_erase_no_allocation_every_list : forall L v i,
  no_alloc (snd (erase L v i)) /\ v_bid (fst (erase L v i)) = v_bid v.
Proof. exact erase_no_alloc. Qed.
Print Assumptions C16_erase_no_allocation_every_list.

Theorem C16_erase_range_no_allocation_every_list : forall L v i j,
  no_alloc (snd (erase_range L v i j)) /\ v_bid (fst (erase_range L v i j)) = v_bid v.
Proof. exact erase_range_no_alloc. Qed.
Print Assumptions C16_erase_range_no_allocation_every_list.

(* ---------- every list: addresses are a function of the content in front ----------
   In every represented state the offset of element k is determined by the tuples in front of
   it (tight packing is part of the invariant).  So two represented states whose lists share a
   prefix hold the elements of that prefix at the same offsets from data_begin() - whatever
   happened in between: emplace_back, pop_back, erase / erase(first,last) behind them, clear and
   refill with the same values, reserve.  (That the block is not replaced by the operations
   C16 names is the no-allocation theorems above.) *)
Theorem C16_addresses_are_a_function_of_the_content : forall L v l offs k, RepO L v l offs -> (k < length l)%nat ->
  eaddr L v (Z.of_nat k) = nth k (cpos L 0 l) 0.
Proof. exact addresses_from_content. Qed.
Print Assumptions C16_addresses_are_a_function_of_the_content.

Theorem C16_common_prefix_same_addresses : forall L v l offs v' l' offs' n k,
  RepO L v l offs -> RepO L v' l' offs' -> firstn n l = firstn n l' ->
  (k < n)%nat -> (k < length l)%nat -> (k < length l')%nat ->
  eaddr L v' (Z.of_nat k) = eaddr L v (Z.of_nat k).
Proof. exact common_prefix_same_addresses. Qed.
Print Assumptions C16_common_prefix_same_addresses.

(* along histories: whatever valid continuation [ext] follows a valid history [h] (every list;
   erase with elements behind only on trivially relocatable lists and on lists without a
   VaryingSize parameter, nt_hist_okx), the elements of the common prefix of the two
   represented lists keep their offsets *)
Theorem C16_addresses_stable_along_histories : forall L cap budget fixed aid junk bid tbid h ext n k,
  wf_plist L = true -> 0 <= cap -> Forall (fun c => 0 <= c) fixed ->
  let v0 := fst (mkvec L cap budget fixed aid junk bid tbid) in
  let s0 := {| s_cap := cap; s_elems := [] |} in
  shist_valid L (fixed_counts L fixed) s0 h -> nt_hist_okx L s0 h ->
  shist_valid L (fixed_counts L fixed) s0 (h ++ ext) -> nt_hist_okx L s0 (h ++ ext) ->
  let l := s_elems (srun s0 h) in
  let l' := s_elems (srun s0 (h ++ ext)) in
  firstn n l = firstn n l' -> (k < n)%nat -> (k < length l)%nat -> (k < length l')%nat ->
  eaddr L (vrun L junk v0 (h ++ ext)) (Z.of_nat k) = eaddr L (vrun L junk v0 h) (Z.of_nat k).
Proof.
  intros L cap budget fixed aid junk bid tbid h ext n k Hwf Hcap Hfx. cbv zeta. intros Hv Hn Hv' Hn' Hp Hk Hl Hl'.
  destruct (rep_every_history_nt L cap budget fixed aid junk bid tbid h Hwf Hcap Hfx Hv Hn) as [offs R].
  destruct (rep_every_history_nt L cap budget fixed aid junk bid tbid (h ++ ext) Hwf Hcap Hfx Hv' Hn') as [offs' R'].
  exact (common_prefix_same_addresses L _ _ offs _ _ offs' n k R R' Hp Hk Hl Hl').
Qed.
Print Assumptions C16_addresses_stable_along_histories.

(* emplace(position, args...) within capacity (the model of it: lists without VaryingSize
   parameter, trivially relocatable types): no allocator event, same block, same capacity;
   the elements in front of the position keep their addresses because the addresses of a list
   without VaryingSize parameter are stride * index (C16_addresses_are_a_function_of_the_content) *)
Theorem C16_emplace_position_no_allocation : forall L v i t,
  no_alloc (snd (emplace_pos L v i t)) /\ v_bid (fst (emplace_pos L v i t)) = v_bid v /\
  v_cap (fst (emplace_pos L v i t)) = v_cap v.
Proof. exact emplace_pos_no_alloc. Qed.
Print Assumptions C16_emplace_position_no_allocation.

(* ... and every element in front of the position stays where it was *)
Theorem C16_emplace_position_keeps_the_elements_in_front : forall L, wf_plist L = true -> has_varying L = false ->
  forall v l offs, RepO L v l offs ->
  forall i t k, (i <= length l)%nat -> Z.of_nat (length l) < v_cap v ->
  tuple_ok L (fixed_counts L (v_fixed v)) 0 t -> (k < i)%nat ->
  eaddr L (fst (emplace_pos L v (Z.of_nat i) t)) (Z.of_nat k) = eaddr L v (Z.of_nat k).
Proof.
  intros L Hwf Hv v l offs R i t k Hi Hcap Ht Hk.
  destruct (emplace_pos_rep L Hwf Hv v l offs R i t Hi Hcap Ht) as ([offs' R'] & _ & _).
  apply (common_prefix_same_addresses L v l offs _ (linsert i t l) offs' i k R R'); try lia.
  - unfold linsert. rewrite firstn_app, firstn_firstn, Nat.min_id, firstn_length.
    replace (i - Init.Nat.min i (length l))%nat with 0%nat by lia. cbn [firstn]. rewrite app_nil_r. reflexivity.
  - rewrite linsert_length by exact Hi. lia.
Qed.
Print Assumptions C16_emplace_position_keeps_the_elements_in_front.

(* erase(first, first) - the empty range, anywhere - does nothing at all: no event (no
   construction, destruction or allocator call), the very same vector (every list) *)
Theorem C16_erase_of_an_empty_range_does_nothing : forall L v i, erase_range L v i i = (v, []).
Proof. exact erase_empty_range_identity. Qed.
Print Assumptions C16_erase_of_an_empty_range_does_nothing.
