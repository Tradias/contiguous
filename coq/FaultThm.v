(* FaultThm.v — allocation failure (C17).
   (1) every allocating operation of a vector, and of an element its construction from a
       reference, its copy and its two assignments (not elem_copy_alloc / elem_move_alloc), requests
       all its memory BEFORE any other effect (no object constructed, destroyed or moved, no block
       returned before the last allocation), so an exception thrown by an allocation finds
       everything as it was;
   (2) a step in which an allocation fails changes no vector and no element, and returns
       every block it had already obtained. *)
From Coq Require Import ZArith List Bool.
From Cntgs Require Import Layout Mem Vector Proxy Elem World StableThm ElemThm.
Import ListNotations.
Local Open Scope Z_scope.

Definition is_ealloc (e : ev) : bool := match e with EAlloc _ _ _ _ => true | _ => false end.
Definition noalloc (evs : list ev) : Prop := forallb (fun e => negb (is_ealloc e)) evs = true.
Definition allocs_first (evs : list ev) : Prop :=
  exists pre post, evs = pre ++ post /\ forallb is_ealloc pre = true /\ noalloc post.

Lemma noalloc_nil : noalloc []. Proof. reflexivity. Qed.
Lemma noalloc_app a b : noalloc a -> noalloc b -> noalloc (a ++ b).
Proof. unfold noalloc. intros Ha Hb. rewrite forallb_app, Ha, Hb. reflexivity. Qed.
Lemma noalloc_cons e a : is_ealloc e = false -> noalloc a -> noalloc (e :: a).
Proof. unfold noalloc. intros He Ha. cbn [forallb]. rewrite He, Ha. reflexivity. Qed.
Lemma noalloc_if (c : bool) a b : noalloc a -> noalloc b -> noalloc (if c then a else b).
Proof. destruct c; auto. Qed.

(* StableThm's no_alloc also excludes deallocations *)
Lemma no_alloc_noalloc evs : no_alloc evs -> noalloc evs.
Proof.
  unfold no_alloc, noalloc. rewrite !forallb_forall. intros H e He. specialize (H e He).
  destruct e; try reflexivity; discriminate H.
Qed.

Lemma noalloc_dealloc_tbl L v : noalloc (dealloc_tbl L v).
Proof. unfold dealloc_tbl. destruct (t_bid (v_tbl v)); reflexivity. Qed.
Lemma noalloc_dealloc_mem L v : noalloc (dealloc_mem L v).
Proof. unfold dealloc_mem. destruct (v_bid v); reflexivity. Qed.
Lemma noalloc_elem_dealloc L e : noalloc (elem_dealloc L e).
Proof. unfold elem_dealloc. destruct (e_bid e); reflexivity. Qed.

(* the events behind the allocations are concatenations of such pieces *)
Create HintDb na discriminated.
#[local] Hint Resolve noalloc_nil noalloc_app noalloc_if no_alloc_noalloc
  noalloc_dealloc_tbl noalloc_dealloc_mem noalloc_elem_dealloc : na.

(* every allocating operation's event list reads: allocation, (allocation of the address table,)
   then events that are no allocations *)
Lemma allocs_first_noalloc evs : noalloc evs -> allocs_first evs.
Proof. intros H. exists [], evs. repeat split; auto. Qed.
Lemma allocs_first_alloc a u n b evs : allocs_first evs -> allocs_first (EAlloc a u n b :: evs).
Proof. intros (pre & post & -> & H1 & H2). exists (EAlloc a u n b :: pre), post. repeat split; assumption. Qed.
Lemma allocs_first_tab (c : bool) a n b evs :
  allocs_first evs -> allocs_first ((if c then [EAlloc a 8 n b] else []) ++ evs).
Proof. destruct c; [apply allocs_first_alloc|intros H; exact H]. Qed.

Theorem mkvec_allocs_first L cap budget fixed aid junk bid tbid :
  allocs_first (snd (mkvec L cap budget fixed aid junk bid tbid)).
Proof.
  unfold mkvec. cbn [snd]. apply allocs_first_alloc. rewrite <- app_nil_r.
  apply allocs_first_tab, allocs_first_noalloc, noalloc_nil.
Qed.

Theorem reserve_allocs_first L v n b junk bid tbid : allocs_first (snd (reserve L v n b junk bid tbid)).
Proof.
  unfold reserve. destruct (v_cap v <? n); [|apply allocs_first_noalloc, noalloc_nil].
  pose proof (proj1 (insert_into_frame true true L v bid junk)) as H.
  destruct (insert_into true true L v bid junk) as [[v1 m] e1]. cbn [snd app] in *.
  apply allocs_first_alloc, allocs_first_tab, allocs_first_noalloc. auto with na nocore.
Qed.

Theorem copy_ctor_allocs_first K L src junk nb :
  allocs_first (snd (fst (copy_ctor K L src junk nb))).
Proof.
  unfold copy_ctor. pose proof (proj1 (insert_into_frame false false L src nb junk)) as H.
  destruct (insert_into false false L src nb junk) as [[s1 m] e1]. cbn [fst snd app] in *.
  apply allocs_first_alloc, allocs_first_tab, allocs_first_noalloc, no_alloc_noalloc, H.
Qed.

Theorem copy_assign_allocs_first K L d src junk nb :
  allocs_first (snd (fst (copy_assign K L d src junk nb))).
Proof.
  unfold copy_assign. pose proof (proj1 (insert_into_frame false false L src nb junk)) as H.
  destruct (insert_into false false L src nb junk) as [[s1 m] e1].
  pose proof (proj1 (destruct_opt_quiet L (all_dtriv L) (Z.to_nat (vsize L d)) d 0)) as Hd.
  destruct (if all_dtriv L then (d, []) else destruct_range L d 0 (Z.to_nat (vsize L d))) as [d1 e2].
  cbn [fst snd app] in *.
  apply allocs_first_alloc, allocs_first_tab, allocs_first_noalloc. auto 6 with na nocore.
Qed.

Theorem move_assign_allocs_first K L d src junk nb :
  allocs_first (snd (fst (move_assign K L d src junk nb))).
Proof.
  unfold move_assign, steal.
  pose proof (proj1 (destruct_opt_quiet L (all_dtriv L) (Z.to_nat (vsize L d)) d 0)) as Hd.
  destruct (if all_dtriv L then (d, []) else destruct_range L d 0 (Z.to_nat (vsize L d))) as [d1 e1].
  destruct (always_eq K || pocma K || (v_aid d =? v_aid src)); [|destruct (consumption L d <? consumption L src)].
  - (* the block is taken over *)
    cbn [fst snd] in *. apply allocs_first_noalloc. auto with na nocore.
  - (* a new block *)
    pose proof (proj1 (insert_into_frame true false L src nb junk)) as H.
    destruct (insert_into true false L src nb junk) as [[s1 m] e2]. cbn [fst snd app] in *.
    apply allocs_first_alloc, allocs_first_tab, allocs_first_noalloc. auto 6 with na nocore.
  - (* the target's block is used again: only a table is requested *)
    pose proof (proj1 (insert_into_frame true false L src (bidn (v_bid d1)) (v_mem d1))) as H.
    destruct (insert_into true false L src (bidn (v_bid d1)) (v_mem d1)) as [[s1 m] e2]. cbn [fst snd] in *.
    apply allocs_first_tab, allocs_first_noalloc. auto with na nocore.
Qed.

(* what store_and_load emits (ElemThm.store_and_load_shape) *)
Lemma noalloc_raw_construct mv L fls fld sb db ms md n :
  noalloc (ERaw db 0 n :: snd (construct_fields mv L fls fld sb db ms md)).
Proof. apply noalloc_cons; [reflexivity|apply no_alloc_noalloc, construct_fields_no_alloc]. Qed.
#[local] Hint Resolve noalloc_raw_construct : na.

Lemma noalloc_assign_objs mv p sb db : forall n x sa da, noalloc (snd (assign_objs mv p sb db x sa da n)).
Proof.
  induction n as [|n IH]; intros x sa da; [apply noalloc_nil|]. cbn [assign_objs].
  set (x1 := wr_d x da (mread (m_s x) sa (Z.to_nat (psz p)))).
  set (x2 := if mv && negb (m_same x && (sa =? da)) then wr_s x1 sa (moved_bytes (psz p)) else x1).
  specialize (IH x2 (sa + psz p) (da + psz p)).
  destruct (assign_objs mv p sb db x2 (sa + psz p) (da + psz p) n) as [x3 evs]. cbn [snd] in *.
  apply noalloc_cons; [destruct mv; reflexivity|exact IH].
Qed.
Lemma noalloc_assign_one mv L sb db fls fld x k : noalloc (snd (assign_one mv L sb db fls fld x k)).
Proof. unfold assign_one. destruct (nth k (runs_asg mv L) RSkip); [apply noalloc_nil|apply noalloc_assign_objs|reflexivity]. Qed.
Lemma noalloc_assign_fl mv L same ms fls sb md fld db : noalloc (snd (assign_fl mv L same ms fls sb md fld db)).
Proof.
  unfold assign_fl. generalize {| m_s := ms; m_d := md; m_same := same |}.
  induction (seq 0 (length L)) as [|k ks IH]; intros x; [apply noalloc_nil|]. cbn [assign_all].
  pose proof (noalloc_assign_one mv L sb db fls fld x k) as H1.
  destruct (assign_one mv L sb db fls fld x k) as [x1 e1]. specialize (IH x1).
  destruct (assign_all mv L sb db fls fld x1 ks) as [x2 e2]. cbn [snd] in *. apply noalloc_app; assumption.
Qed.

Theorem elem_from_ref_allocs_first mv L ms fls sb aid junk nb :
  allocs_first (snd (elem_from_ref mv L ms fls sb aid junk nb)).
Proof.
  destruct (elem_from_ref_shape mv L ms fls sb aid junk nb) as (ms1 & md1 & ->).
  apply allocs_first_alloc, allocs_first_noalloc, noalloc_raw_construct.
Qed.

Theorem elem_copy_allocs_first L src aid junk nb : allocs_first (snd (elem_copy L src aid junk nb)).
Proof.
  unfold elem_copy.
  destruct (store_and_load_shape false L (e_mem src) (e_fl src) (bidn (e_bid src)) (ref_bytes L (e_fl src)) junk nb) as (ms1 & md1 & ->).
  apply allocs_first_alloc, allocs_first_noalloc, noalloc_raw_construct.
Qed.

Theorem elem_copy_assign_allocs_first pocca ae L d src junk nb :
  allocs_first (snd (fst (elem_copy_assign pocca ae L d src junk nb))).
Proof.
  unfold elem_copy_assign.
  destruct (fixed_or_plain L && (negb pocca || ae) && match e_bid d with Some _ => true | None => false end).
  - pose proof (noalloc_assign_fl false L false (e_mem src) (e_fl src) (bidn (e_bid src)) (e_mem d) (e_fl d) (bidn (e_bid d))) as H.
    destruct (assign_fl false L false _ _ _ _ _ _) as [[ms md] evs].
    apply allocs_first_noalloc, H.
  - pose proof (elem_destruct_no_alloc L d) as H1. destruct (elem_destruct L d) as [d1 e1].
    destruct (store_and_load_shape false L (e_mem src) (e_fl src) (bidn (e_bid src)) (ref_bytes L (e_fl src)) junk nb) as (ms1 & md1 & ->).
    cbn [fst snd app] in *.
    apply allocs_first_alloc, allocs_first_noalloc. auto with na nocore.
Qed.

Theorem elem_move_assign_allocs_first pocma ae L d src junk nb :
  allocs_first (snd (fst (elem_move_assign pocma ae L d src junk nb))).
Proof.
  unfold elem_move_assign, elem_steal.
  pose proof (elem_destruct_no_alloc L d) as H1. destruct (elem_destruct L d) as [d1 e1]. cbn [snd] in H1.
  destruct (ae || pocma || (e_aid d =? e_aid src)); [apply allocs_first_noalloc; cbn [fst snd]; auto with na nocore|].
  destruct (fixed_or_plain L && match e_bid d with Some _ => true | None => false end).
  - pose proof (noalloc_assign_fl true L false (e_mem src) (e_fl src) (bidn (e_bid src)) (e_mem d) (e_fl d) (bidn (e_bid d))) as H.
    destruct (assign_fl true L false _ _ _ _ _ _) as [[ms md] evs].
    apply allocs_first_noalloc, H.
  - destruct (e_units d <? ref_bytes L (e_fl src)).
    + destruct (store_and_load_shape true L (e_mem src) (e_fl src) (bidn (e_bid src)) (ref_bytes L (e_fl src)) junk nb) as (ms & md & ->).
      cbn [fst snd] in *.
      apply allocs_first_alloc, allocs_first_noalloc. auto with na nocore.
    + destruct (store_and_load_shape true L (e_mem src) (e_fl src) (bidn (e_bid src)) (ref_bytes L (e_fl src)) (e_mem d1) (bidn (e_bid d1))) as (ms & md & ->).
      cbn [fst snd] in *.
      apply allocs_first_noalloc. auto with na nocore.
Qed.

Lemma step_f_failure K L w o k :
  w_fail w = Some k ->
  let w1 := step K L w o in
  let new := rev (firstn (length (w_out w1) - length (w_out w)) (w_out w1)) in
  (k < length (filter is_alloc new))%nat ->
  w_vecs (step_f K L w o) = w_vecs w /\ w_elems (step_f K L w o) = w_elems w /\
  w_fail (step_f K L w o) = None /\ w_nb (step_f K L w o) = (w_nb w + k)%nat.
Proof.
  intros Hf w1 new Hk. unfold step_f. rewrite Hf. fold w1. fold new.
  apply Nat.ltb_lt in Hk. rewrite Hk. unfold emit. cbn [w_vecs w_elems w_fail w_nb]. auto.
Qed.

(* step_f emits [flat_map dealloc_of (rev done)] for the allocations [done] that preceded the
   failing one: that returns each of them *)
Lemma dealloc_of_done : forall done a u n b,
  In (OEv (EAlloc a u n b)) done -> In (OEv (EDealloc a u n b)) (flat_map dealloc_of (rev done)).
Proof.
  intros done a u n b H. apply in_flat_map. exists (OEv (EAlloc a u n b)).
  split; [apply -> in_rev; exact H|left; reflexivity].
Qed.

Lemma step_f_no_failure K L w o : w_fail w = None -> step_f K L w o = step K L w o.
Proof. intros H. unfold step_f. rewrite H. reflexivity. Qed.
