(* C02 — no access outside the allocated block while within declared capacity. *)
From Coq Require Import ZArith List Lia.
From Cntgs Require Import Layout Vector Spec Rep EsizeThm Refine C02Thm NeededThm C02Hist NtRefine EmplacePos
     World NtWorld.
Import ListNotations.
Local Open Scope Z_scope.

(* arithmetic sufficiency, lists WITHOUT VaryingSize parameter: a vector constructed for
   N elements holds any N elements — element i ends inside the block of
   SA * units (needed N 0 (esize L fixed)) bytes, for every list, fixed sizes and N. *)
Theorem C02_fixed_capacity_sufficient : forall L fixed N i t,
  wf_plist L = true -> has_varying L = false -> Forall (fun c => 0 <= c) fixed ->
  tuple_ok L (fixed_counts L fixed) 0 t -> 0 <= i < N ->
  let sz := esize L fixed in
  elem_end L (snd sz * i) t <= SA L * units L (needed N 0 sz).
Proof. exact fixed_capacity_sufficient. Qed.
Print Assumptions C02_fixed_capacity_sufficient.

(* in every represented state (hence after every valid history, by C01) every element
   lies inside [data_begin(), data_end()) at a storage-aligned offset *)
Theorem C02_elements_inside_data : forall L v l, wf_plist L = true -> Rep L v l ->
  exists offs, length offs = length l /\
    Forall2 (fun a t => 0 <= a /\ (SA L | a) /\ elem_end L a t <= dend L v) offs l.
Proof. exact elements_inside_data. Qed.
Print Assumptions C02_elements_inside_data.

(* arithmetic sufficiency, worst-case formula, lists WITH VaryingSize parameters: N
   elements stored one after the other as emplace_back does (fill), whose varying payload
   adds up to at most B bytes, end inside the block of
   SA * units (needed N B (esize L fixed)) bytes - for every well-formed list whose tail is
   benign (tail_ok: the last parameter is a VaryingSize one, or a parameter with the storage
   alignment follows the last VaryingSize one, or there is no VaryingSize parameter), every
   N, every B, every fixed sizes and every choice of the varying counts. *)
Theorem C02_varying_capacity_sufficient : forall L fixed cs B,
  wf_plist L = true -> tail_ok (SA L) true L = true ->
  Forall (cnts_fit L (fixed_counts L fixed)) cs -> payload L cs <= B -> 0 <= B ->
  0 <= fill L cs 0 <= SA L * units L (needed (Z.of_nat (length cs)) B (esize L fixed)).
Proof. exact needed_sufficient_block. Qed.
Print Assumptions C02_varying_capacity_sufficient.

(* the lists people write most: the last parameter is a VaryingSize one *)
Theorem C02_last_varying_is_benign : forall S0 L b, L <> [] ->
  is_varying (last L {| pk := Plain; psz := 1; pal := 1; pty := TBlob |}) = true ->
  tail_ok S0 b L = true.
Proof. intros S0 L b. exact (tail_ok_last_varying S0 L b). Qed.
Print Assumptions C02_last_varying_is_benign.

(* one element of ANY well-formed list (benign tail or not) stored at a storage-aligned
   address ends inside size + payload bytes: a vector constructed for one element holds it *)
Theorem C02_single_element_fits : forall L fixed cnts a,
  wf_plist L = true -> cnts_fit L (fixed_counts L fixed) cnts -> 0 <= a -> (SA L | a) ->
  snd (place L cnts a) - a <= fst (esize L fixed) + vbytes L cnts.
Proof. intros L fixed cnts a Hwf Hc Ha Hd. exact (proj1 (element_bound L fixed cnts a Hwf Hc Ha Hd)). Qed.
Print Assumptions C02_single_element_fits.

(* HISTORY level: construction for (cap, budget), then ANY history of emplace_back /
   pop_back / erase / erase(first,last) / clear / reserve that respects the documented limits
   (size() < capacity() at emplace_back - shist_valid; the varying payload after each
   emplace_back within the byte budget of the construction or of the last growing reserve, and
   reserve(n, b) with b covering what is stored - bhist_valid): in the state reached, every
   stored element lies at a non-negative offset and ends inside the SA * units bytes the
   vector owns.  For trivially relocatable lists with a benign tail.  Tight packing (C05) is
   what makes the fill of the proof above the actual layout after erase and pop_back. *)
Theorem C02_every_history_stays_inside_the_block : forall L cap budget fixed aid junk bid tbid h,
  wf_plist L = true -> all_triv L = true -> tail_ok (SA L) true L = true ->
  0 <= cap -> 0 <= budget -> Forall (fun c => 0 <= c) fixed ->
  let v0 := fst (mkvec L cap budget fixed aid junk bid tbid) in
  let s0 := {| s_cap := cap; s_elems := [] |} in
  shist_valid L (fixed_counts L fixed) s0 h -> bhist_valid L s0 budget h ->
  let v := vrun L junk v0 h in
  let l := s_elems (srun s0 h) in
  exists offs, RepO L v l offs /\
    Forall2 (fun a t => 0 <= a /\ elem_end L a t <= SA L * v_units v) offs l.
Proof. exact every_element_inside_block_every_history. Qed.
Print Assumptions C02_every_history_stays_inside_the_block.

(* the worst-case formula is NOT sufficient for lists with a plain/fixed parameter behind the
   last VaryingSize parameter: the faithful model overruns its block within the documented limits.  This is
   the recorded known finding "needed-tail-after-varying"; the witness replayed on the
   implementation trips the allocator's guard zone (corpus/f7.script).  The witness list has
   tail_ok = false (NeededThm.f7L_tail_not_ok): the two theorems meet at that predicate. *)
Theorem C02_varying_capacity_refuted :
  exists L N B vcounts,
    wf_plist L = true /\ Z.of_nat (length vcounts) = N /\
    fold_right Z.add 0 (map (fun c => c * 7) vcounts) <= B /\
    SA L * units L (needed N B (esize L [])) < fill_end L vcounts 0.
Proof. exact needed_refuted. Qed.
Print Assumptions C02_varying_capacity_refuted.

(* HISTORY level for EVERY well-formed list with a benign tail, non-trivial value types included
   (C02Hist.v; erase with elements behind the erased ones only on trivially relocatable
   lists and on lists without a VaryingSize parameter, NtRefine.nt_hist_okx) *)
Theorem C02_every_history_stays_inside_the_block_every_list : forall L cap budget fixed aid junk bid tbid h,
  wf_plist L = true -> tail_ok (SA L) true L = true ->
  0 <= cap -> 0 <= budget -> Forall (fun c => 0 <= c) fixed ->
  let v0 := fst (mkvec L cap budget fixed aid junk bid tbid) in
  let s0 := {| s_cap := cap; s_elems := [] |} in
  shist_valid L (fixed_counts L fixed) s0 h -> bhist_valid L s0 budget h -> nt_hist_okx L s0 h ->
  let v := vrun L junk v0 h in
  let l := s_elems (srun s0 h) in
  exists offs, RepO L v l offs /\
    Forall2 (fun a t => 0 <= a /\ elem_end L a t <= SA L * v_units v) offs l.
Proof. exact every_element_inside_block_every_history_ntx. Qed.
Print Assumptions C02_every_history_stays_inside_the_block_every_list.

(* "no operation reads or writes outside the memory": emplace(position, args...) is an operation
   too (vector.hpp:174-188; upstream's own tests of it are skipped).  Modelled where the code is
   functional - lists without a VaryingSize parameter (the model is the trivially relocatable
   path: memmove + memcpy).  What it does to the represented list is an insert *)
Theorem C02_emplace_position_inserts : forall L, wf_plist L = true -> has_varying L = false ->
  forall v l offs, RepO L v l offs ->
  forall i t, (i <= length l)%nat -> Z.of_nat (length l) < v_cap v ->
  tuple_ok L (fixed_counts L (v_fixed v)) 0 t ->
  let v' := fst (emplace_pos L v (Z.of_nat i) t) in
  Rep L v' (linsert i t l) /\ v_cap v' = v_cap v /\ v_fixed v' = v_fixed v.
Proof. exact emplace_pos_rep. Qed.
Print Assumptions C02_emplace_position_inserts.

(* on the way emplace(position) writes the bytes [stride*(i+1), stride*(n+2)): one element BEYOND
   the n+1 elements the vector holds afterwards (the scratch copy of the new element) *)
Theorem C02_emplace_position_writes_one_element_behind_the_end : forall L, has_varying L = false ->
  forall v l offs, RepO L v l offs ->
  forall i t, (i <= length l)%nat ->
  In (ERaw (bidn (v_bid v)) (v_stride v * (Z.of_nat i + 1)) (v_stride v * (Z.of_nat (length l) + 2)))
     (snd (emplace_pos L v (Z.of_nat i) t)).
Proof. exact emplace_pos_writes. Qed.
Print Assumptions C02_emplace_position_writes_one_element_behind_the_end.

(* that write is outside the block when the vector becomes full: the recorded finding
   emplace-position-scratch.  ContiguousVector<uint64_t> v{3}; two emplace_back;
   v.emplace(v.begin(), x): the block has 24 bytes, the call writes up to byte 32 *)
Definition c02eL : list param := [ {| pk := Plain; psz := 8; pal := 8; pty := TUInt |} ].
Definition c02et (b : Z) : tuple := [[[b; 0; 0; 0; 0; 0; 0; 0]]].
Theorem C02_emplace_position_refuted :
  let v0 := fst (mkvec c02eL 3 0 [] 0 (fun _ => 170) 0%nat 1%nat) in
  let v2 := fst (emplace_back c02eL (fst (emplace_back c02eL v0 (c02et 1))) (c02et 2)) in
  wf_plist c02eL = true /\ has_varying c02eL = false /\ all_triv c02eL = true /\
  Rep c02eL v2 [c02et 1; c02et 2] /\ v_cap v2 = 3 /\
  exists lo hi, In (ERaw (bidn (v_bid v2)) lo hi) (snd (emplace_pos c02eL v2 0 (c02et 7))) /\
                SA c02eL * v_units v2 < hi.
Proof.
  cbv zeta.
  split; [reflexivity|]. split; [reflexivity|]. split; [reflexivity|].
  assert (Hwf : wf_plist c02eL = true) by reflexivity.
  assert (Hst : has_varying c02eL = false -> stride_ok c02eL (fixed_counts c02eL []) (snd (esize c02eL []))).
  { intros Hnv. apply esize_stride_ok; auto. apply fixed_counts_nonneg; auto. }
  destruct (mkvec_rep c02eL Hwf 3 0 [] 0 (fun _ => 170) 0%nat 1%nat ltac:(lia) Hst) as (R0 & Hc0 & Hf0).
  cbv zeta in *.
  assert (T : forall b, tuple_ok c02eL (fixed_counts c02eL []) 0 (c02et b)).
  { intros b. cbn. repeat split; try reflexivity. repeat constructor. }
  pose proof (emplace_rep c02eL Hwf _ _ (c02et 1) R0 ltac:(rewrite Hc0; cbn; lia)
                ltac:(rewrite Hf0; apply T)) as R1.
  assert (Hf1 : v_fixed (fst (emplace_back c02eL (fst (mkvec c02eL 3 0 [] 0 (fun _ => 170) 0%nat 1%nat)) (c02et 1))) = []) by reflexivity.
  assert (Hc1 : v_cap (fst (emplace_back c02eL (fst (mkvec c02eL 3 0 [] 0 (fun _ => 170) 0%nat 1%nat)) (c02et 1))) = 3) by reflexivity.
  pose proof (emplace_rep c02eL Hwf _ _ (c02et 2) R1 ltac:(rewrite Hc1; cbn; lia)
                ltac:(rewrite Hf1; apply T)) as R2.
  split; [exact R2|]. split; [reflexivity|].
  exists 8, 32. split; [|vm_compute; reflexivity].
  vm_compute. left. reflexivity.
Qed.
Print Assumptions C02_emplace_position_refuted.

(* erase(position) undoes emplace(position): the two are inverse on the represented list *)
Theorem C02_emplace_position_then_erase_gives_back_the_list : forall L, wf_plist L = true ->
  has_varying L = false -> all_triv L = true ->
  forall v l offs, RepO L v l offs ->
  forall i t, (i <= length l)%nat -> Z.of_nat (length l) < v_cap v ->
  tuple_ok L (fixed_counts L (v_fixed v)) 0 t ->
  Rep L (fst (erase L (fst (emplace_pos L v (Z.of_nat i) t)) (Z.of_nat i))) l.
Proof. exact emplace_then_erase. Qed.
Print Assumptions C02_emplace_position_then_erase_gives_back_the_list.

(* assignment clause, move assignment under EVERY allocator trait combination and parameter
   list: the target reports the source's capacity and owns a block - stolen, new, or its own
   one reused - of at least the source's block's bytes; C02_every_history_stays_inside_the_block
   says those bytes hold that capacity.  (The reuse branch must compare the BLOCKS, not the
   bytes in use: seed C02n.) *)
Theorem C02_move_assigned_block_holds_the_new_capacity : forall K L d src junk nb,
  0 < SA L -> 0 <= v_units src ->
  let '(d', _, _, _) := move_assign K L d src junk nb in
  v_cap d' = v_cap src /\ consumption L src <= consumption L d'.
Proof. exact move_assign_block_suffices. Qed.
Print Assumptions C02_move_assigned_block_holds_the_new_capacity.
