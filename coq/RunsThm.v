(* RunsThm.v — structure of the run tables (ElementTraits::calculate_consecutive_indices):
   for every parameter list, predicate and break mode the table partitions the fields into
   MANUAL fields and runs [k..e] of consecutive fields that all satisfy the predicate; every
   field is covered.  Consequences (C11, C13, C14): a field whose value type is not trivially
   assignable / swappable / memcmp-able is never handled byte-wise, and no field is left out. *)
From Coq Require Import ZArith List Bool Lia.
From Cntgs Require Import ListAux Layout LayoutThm Vector Proxy.
Import ListNotations.
Local Open Scope Z_scope.

Section Runs.
  Variable pred : param -> bool.
  Variables bpad bspan : bool.

  Definition covered (R : list ridx) (j : nat) : Prop :=
    nth j R RSkip = RManual \/ exists k e, (k <= j <= e)%nat /\ nth k R RSkip = REnd e.

  Definition sound (L0 : list param) (R : list ridx) (hi : nat) : Prop :=
    (forall k e, nth k R RSkip = REnd e ->
       (k <= e < hi)%nat /\ forall j, (k <= j <= e)%nat -> pred (nth j L0 pparam0) = true) /\
    (forall j, nth j R RSkip = RManual -> (j < hi)%nat /\ pred (nth j L0 pparam0) = false).

  (* what the two break modes guarantee: inside a run no field (but the first) may be
     preceded by alignment padding [bpad]; only the last field of a run is a span [bspan].
     ("tight" about the inside of a run; the packing of elements is Rep.elems_tight) *)
  Definition tight (L0 : list param) (pv0 : list Z) (R : list ridx) : Prop :=
    forall k e, nth k R RSkip = REnd e ->
      (forall j, (k < j <= e)%nat -> bpad = true -> (nth j pv0 0 <? pal (nth j L0 pparam0)) = false) /\
      (forall j, (k <= j < e)%nat -> bspan = true -> is_plain (nth j L0 pparam0) = true).

  Definition separated (R : list ridx) (i : nat) : Prop :=
    (forall j, (i <= j)%nat -> nth j R RSkip = RSkip) /\
    (forall k e, nth k R RSkip = REnd e -> (e < i)%nat /\ forall j, (k < j <= e)%nat -> nth j R RSkip = RSkip).

  (* the state of the loop in front of field i of L0: the table describes the fields below i,
     and [index] is where the run that field i may join starts - if index < i that run is
     open, its entry says that it ends at i - 1 *)
  Record rinv (L0 : list param) (pv0 : list Z) (i index : nat) (acc : list ridx) : Prop := {
    ri_len : length acc = length L0;
    ri_idx : (index <= i)%nat;
    ri_open : (index < i)%nat -> nth index acc RSkip = REnd (i - 1);
    ri_plain : bspan = true -> forall j, (index <= j < i)%nat -> is_plain (nth j L0 pparam0) = true;
    ri_cov : forall j, (j < i)%nat -> covered acc j;
    ri_sound : sound L0 acc (length L0);
    ri_tight : tight L0 pv0 acc;
    ri_sep : separated acc i }.

  Lemma rinv_start L0 pv0 : rinv L0 pv0 0 0 (repeat RSkip (length L0)).
  Proof.
    assert (Hno : forall k r, nth k (repeat RSkip (length L0)) RSkip = r -> r = RSkip)
      by (intros k r <-; apply nth_repeat).
    split; try lia.
    - apply repeat_length.
    - split; [intros k e H|intros k H]; apply Hno in H; discriminate.
    - intros k e H. apply Hno in H. discriminate.
    - split; [intros j _; apply nth_repeat|]. intros k e H. apply Hno in H. discriminate.
  Qed.

  (* only [index] tells whether the last run is open: it can be closed at any time ... *)
  Lemma rinv_close L0 pv0 i index acc : rinv L0 pv0 i index acc -> rinv L0 pv0 i i acc.
  Proof. intros [Hlen _ _ _ Hcov Hs Ht Hd]. split; try assumption; lia. Qed.

  (* ... and a run that ends at field i - 1 counts as open if the next field may join it *)
  Lemma rinv_reopen L0 pv0 i index acc : rinv L0 pv0 (S i) (S i) acc ->
    (index <= i)%nat -> nth index acc RSkip = REnd i ->
    (bspan = true -> forall j, (index <= j <= i)%nat -> is_plain (nth j L0 pparam0) = true) ->
    rinv L0 pv0 (S i) index acc.
  Proof.
    intros [Hlen _ _ _ Hcov Hs Ht Hd] Hidx Hent Hpl. split; try assumption; [lia| |].
    - intros _. rewrite Nat.sub_1_r. exact Hent.
    - intros Hb j Hj. apply Hpl; [exact Hb|lia].
  Qed.

  (* field i gets an entry of its own: MANUAL, or a run that consists of field i *)
  Lemma rinv_fresh L0 pv0 i index acc r : (i < length L0)%nat ->
    match r with
    | RSkip => False
    | RManual => pred (nth i L0 pparam0) = false
    | REnd e => e = i /\ pred (nth i L0 pparam0) = true
    end ->
    rinv L0 pv0 i index acc -> rinv L0 pv0 (S i) (S i) (upd i r acc).
  Proof.
    intros Hi Hr [Hlen Hidx Hopen Hplain Hcov [Hs1 Hs2] Ht [D1 D2]].
    assert (Hia : (i < length acc)%nat) by lia.
    assert (Hnew : nth i (upd i r acc) RSkip = r) by (apply upd_nth_same; exact Hia).
    assert (Hold : forall k, k <> i -> nth k (upd i r acc) RSkip = nth k acc RSkip)
      by (intros k Hk; apply upd_nth_other; congruence).
    split; try lia.
    - rewrite upd_length. exact Hlen.
    - intros j Hj. destruct (Nat.eq_dec j i) as [->|Hne].
      + destruct r as [| |e]; [contradiction|left; exact Hnew|]. right. exists i, e. split; [lia|exact Hnew].
      + destruct (Hcov j ltac:(lia)) as [Hm|(k & e & Hke & Hk)].
        * left. rewrite Hold by exact Hne. exact Hm.
        * right. exists k, e. split; [exact Hke|]. rewrite Hold; [exact Hk|]. destruct (D2 k e Hk). lia.
    - split.
      + intros k e Hk. destruct (upd_nth_inv _ _ _ _ _ _ Hia Hk) as [[-> <-]|[_ Hk']]; [|exact (Hs1 k e Hk')].
        destruct Hr as [-> Hp]. split; [lia|]. intros j Hj. replace j with i by lia. exact Hp.
      + intros j Hj. destruct (upd_nth_inv _ _ _ _ _ _ Hia Hj) as [[-> <-]|[_ Hj']]; [split; [lia|exact Hr]|exact (Hs2 j Hj')].
    - intros k e Hk. destruct (upd_nth_inv _ _ _ _ _ _ Hia Hk) as [[-> <-]|[_ Hk']]; [|exact (Ht k e Hk')].
      destruct Hr as [-> _]. split; intros j Hj; lia.
    - split.
      + intros j Hj. rewrite Hold by lia. apply D1. lia.
      + intros k e Hk. destruct (upd_nth_inv _ _ _ _ _ _ Hia Hk) as [[-> <-]|[_ Hk']].
        * destruct Hr as [-> _]. split; [lia|]. intros j Hj. lia.
        * destruct (D2 k e Hk') as [He Hin]. split; [lia|]. intros j Hj. rewrite Hold by lia. apply Hin. exact Hj.
  Qed.

  Lemma rinv_join L0 pv0 i index acc : (i < length L0)%nat -> (index < i)%nat ->
    pred (nth i L0 pparam0) = true ->
    (bpad = true -> (nth i pv0 0 <? pal (nth i L0 pparam0)) = false) ->
    rinv L0 pv0 i index acc -> rinv L0 pv0 (S i) (S i) (upd index (REnd i) acc).
  Proof.
    intros Hi Hlt Hp Hpad [Hlen _ Hopen Hplain Hcov [Hs1 Hs2] Ht [D1 D2]]. specialize (Hopen Hlt).
    assert (Hia : (index < length acc)%nat) by lia.
    assert (Hnew : nth index (upd index (REnd i) acc) RSkip = REnd i) by (apply upd_nth_same; exact Hia).
    assert (Hold : forall k, k <> index -> nth k (upd index (REnd i) acc) RSkip = nth k acc RSkip)
      by (intros k Hk; apply upd_nth_other; congruence).
    (* the run so far *)
    destruct (Hs1 _ _ Hopen) as [_ Hpred]. destruct (Ht _ _ Hopen) as [Htp _]. destruct (D2 _ _ Hopen) as [_ Hskip].
    split; try lia.
    - rewrite upd_length. exact Hlen.
    - intros j Hj. destruct (Nat.eq_dec j i) as [->|Hne]; [right; exists index, i; split; [lia|exact Hnew]|].
      destruct (Hcov j ltac:(lia)) as [Hm|(k & e & Hke & Hk)].
      + left. rewrite Hold; [exact Hm|]. intros ->. congruence.
      + right. destruct (Nat.eq_dec k index) as [->|Hne1].
        * exists index, i. split; [lia|exact Hnew].
        * exists k, e. split; [exact Hke|]. rewrite Hold by exact Hne1. exact Hk.
    - split.
      + intros k e Hk. destruct (upd_nth_inv _ _ _ _ _ _ Hia Hk) as [[-> [= ->]]|[_ Hk']]; [|exact (Hs1 k e Hk')].
        split; [lia|]. intros j Hj. destruct (Nat.eq_dec j i) as [->|Hne]; [exact Hp|apply Hpred; lia].
      + intros j Hj. destruct (upd_nth_inv _ _ _ _ _ _ Hia Hj) as [[_ [=]]|[_ Hj']]. exact (Hs2 j Hj').
    - intros k e Hk. destruct (upd_nth_inv _ _ _ _ _ _ Hia Hk) as [[-> [= ->]]|[_ Hk']]; [|exact (Ht k e Hk')]. split.
      + intros j Hj Hb. destruct (Nat.eq_dec j i) as [->|Hne]; [exact (Hpad Hb)|apply Htp; [lia|exact Hb]].
      + intros j Hj Hb. apply Hplain; [exact Hb|lia].
    - split.
      + intros j Hj. rewrite Hold by lia. apply D1. lia.
      + intros k e Hk. destruct (upd_nth_inv _ _ _ _ _ _ Hia Hk) as [[-> [= ->]]|[_ Hk']].
        * split; [lia|]. intros j Hj. rewrite Hold by lia.
          destruct (Nat.eq_dec j i) as [->|Hne]; [apply D1; lia|apply Hskip; lia].
        * destruct (D2 k e Hk') as [He Hin]. split; [lia|]. intros j Hj. rewrite Hold; [apply Hin; exact Hj|].
          intros ->. rewrite (Hin index Hj) in Hopen. discriminate.
  Qed.

  (* a field that satisfies the predicate extends the run that starts at index1: the open
     run, or - in front of padding, or when none is open - a new one starting here *)
  Lemma rinv_run L0 pv0 i index acc :
    (i < length L0)%nat -> pred (nth i L0 pparam0) = true ->
    rinv L0 pv0 i index acc ->
    let p := nth i L0 pparam0 in
    let index1 := if bpad && negb (Nat.eqb i 0) && (nth i pv0 0 <? pal p) then i else index in
    rinv L0 pv0 (S i) (if bspan && negb (is_plain p) then S i else index1) (upd index1 (REnd i) acc).
  Proof.
    intros Hi Hp H p index1.
    assert (H1 : rinv L0 pv0 i index1 acc /\ (bpad = true -> (index1 < i)%nat -> (nth i pv0 0 <? pal p) = false)).
    { subst index1. destruct (bpad && negb (Nat.eqb i 0) && (nth i pv0 0 <? pal p)) eqn:Hc.
      - split; [exact (rinv_close _ _ _ _ _ H)|lia].
      - split; [exact H|]. intros Hb Hlt. rewrite Hb in Hc. destruct (Nat.eqb_spec i 0) as [->|_]; [lia|exact Hc]. }
    clearbody index1. destruct H1 as [H1 Hpad].
    assert (H2 : rinv L0 pv0 (S i) (S i) (upd index1 (REnd i) acc)).
    { destruct (le_lt_eq_dec _ _ (ri_idx _ _ _ _ _ H1)) as [Hlt| ->].
      - apply rinv_join; [exact Hi|exact Hlt|exact Hp|intros Hb; exact (Hpad Hb Hlt)|exact H1].
      - exact (rinv_fresh L0 pv0 i i acc (REnd i) Hi (conj eq_refl Hp) H1). }
    destruct (bspan && negb (is_plain p)) eqn:Hs; [exact H2|].
    pose proof (ri_idx _ _ _ _ _ H1) as Hle. apply (rinv_reopen _ _ _ _ _ H2 Hle).
    - apply upd_nth_same. rewrite (ri_len _ _ _ _ _ H1). lia.
    - intros Hb j Hj. destruct (Nat.eq_dec j i) as [->|Hne]; [|apply (ri_plain _ _ _ _ _ H1 Hb); lia].
      rewrite Hb in Hs. fold p. destruct (is_plain p); [reflexivity|discriminate Hs].
  Qed.

  Lemma runs_from_inv L0 pv0 : (length L0 <= length pv0)%nat ->
    forall n i index acc, (i + n = length L0)%nat -> rinv L0 pv0 i index acc ->
    exists index', rinv L0 pv0 (length L0) index'
                     (runs_from pred bpad bspan (skipn i L0) (skipn i pv0) i index acc).
  Proof.
    intros Hpv. induction n as [|n IH]; intros i index acc Hn H.
    - rewrite (skipn_all2 L0) by lia. replace (length L0) with i by lia. exists index. exact H.
    - rewrite (skipn_nth_cons pparam0 i L0), (skipn_nth_cons 0 i pv0) by lia. cbn [runs_from].
      destruct (pred (nth i L0 pparam0)) eqn:Hp; (apply IH; [lia|]).
      + apply rinv_run; [lia|exact Hp|exact H].
      + exact (rinv_fresh L0 pv0 i index acc RManual ltac:(lia) Hp H).
  Qed.

  Lemma runs_inv L : exists index, rinv L (prevs L) (length L) index (runs pred bpad bspan L).
  Proof.
    apply (runs_from_inv L (prevs L) ltac:(rewrite prevs_length; lia) (length L) O O); [reflexivity|].
    apply rinv_start.
  Qed.

  Theorem runs_structure (L : list param) :
    let R := runs pred bpad bspan L in
    length R = length L /\
    (forall j, (j < length L)%nat -> covered R j) /\
    sound L R (length L).
  Proof.
    destruct (runs_inv L) as [ix H].
    exact (conj (ri_len _ _ _ _ _ H) (conj (ri_cov _ _ _ _ _ H) (ri_sound _ _ _ _ _ H))).
  Qed.
  Theorem runs_tight (L : list param) : tight L (prevs L) (runs pred bpad bspan L).
  Proof. destruct (runs_inv L) as [ix H]. exact (ri_tight _ _ _ _ _ H). Qed.
  Theorem runs_separated (L : list param) : separated (runs pred bpad bspan L) (length L).
  Proof. destruct (runs_inv L) as [ix H]. exact (ri_sep _ _ _ _ _ H). Qed.

  Lemma runs_bounds L k e : nth k (runs pred bpad bspan L) RSkip = REnd e -> (k <= e < length L)%nat.
  Proof. intros H. destruct (runs_structure L) as (_ & _ & Hs & _). exact (proj1 (Hs k e H)). Qed.

  Lemma runs_first_not_skip L : L <> [] -> nth 0 (runs pred bpad bspan L) RSkip <> RSkip.
  Proof.
    intros HL. destruct (runs_structure L) as (_ & Hc & _).
    destruct (Hc O) as [H|(k & e & Hke & H)]; [destruct L; [congruence|cbn [length]; lia]|congruence|].
    replace k with O in H by lia. congruence.
  Qed.
End Runs.
