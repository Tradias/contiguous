(* C08 — allocator propagation follows std::allocator_traits. *)
From Coq Require Import List.
From Cntgs Require Import Layout Vector World Rep WorldThm NtWorld.
Import ListNotations.
Local Open Scope Z_scope.

(* For every allocator kind K (all 32 combinations of the four traits and of
   select_on_container_copy_construction), every list of trivially relocatable types and
   all states: get_allocator() after copy construction is soccc(source); after copy
   assignment, move assignment and swap it is the source's exactly when the corresponding
   propagate_on_container_* trait is true.  (Each theorem also gives the value semantics
   used by C09.) *)
Theorem C08_copy_construction : forall L, wf_plist L = true -> all_triv L = true -> all_ctriv false L = true ->
  forall K src l junk nb, Rep L src l ->
  let '(d, src', evs, nb') := copy_ctor K L src junk nb in
  Rep L d l /\ src' = src /\ v_aid d = soccc K (v_aid src) /\
  v_cap d = v_cap src /\ v_fixed d = v_fixed src /\ v_bid d = Some nb.
Proof. exact (fun L Hwf _ _ => copy_ctor_spec_nt L Hwf). Qed.
Print Assumptions C08_copy_construction.

Theorem C08_copy_assignment : forall L, wf_plist L = true -> all_triv L = true -> all_ctriv false L = true ->
  forall K d src l junk nb, Rep L src l ->
  let '(d', src', evs, nb') := copy_assign K L d src junk nb in
  Rep L d' l /\ src' = src /\
  v_aid d' = (if pocca K then v_aid src else v_aid d) /\
  v_cap d' = v_cap src /\ v_fixed d' = v_fixed src.
Proof. exact (fun L Hwf _ _ => copy_assign_spec_nt L Hwf). Qed.
Print Assumptions C08_copy_assignment.

Theorem C08_move_assignment : forall L, wf_plist L = true -> all_triv L = true ->
  forall K d src l junk nb, Rep L src l ->
  let '(d', src', evs, nb') := move_assign K L d src junk nb in
  Rep L d' l /\
  v_aid d' = (if pocma K then v_aid src else v_aid d) /\
  (src' = moved_from src \/ src' = src).
Proof. exact move_assign_spec. Qed.
Print Assumptions C08_move_assignment.

(* unequal non-propagating allocators: the source's block is never taken; the elements go
   into the target's own block or into one newly allocated from the TARGET's allocator *)
Theorem C08_move_assignment_elementwise : forall L, all_triv L = true ->
  forall K d src junk nb,
  always_eq K = false -> pocma K = false -> v_aid d <> v_aid src ->
  let '(d', src', evs, nb') := move_assign K L d src junk nb in
  src' = src /\ v_aid d' = v_aid d /\
  (v_bid d' = v_bid d \/
   (v_bid d' = Some nb /\ In (EAlloc (v_aid d) (SA L) (consumption L src) nb) evs)).
Proof. exact move_assign_elementwise_triv. Qed.
Print Assumptions C08_move_assignment_elementwise.

Theorem C08_swap : forall L K a b la lb, Rep L a la -> Rep L b lb ->
  Rep L (fst (swap_vec K a b)) lb /\ Rep L (snd (swap_vec K a b)) la /\
  v_aid (fst (swap_vec K a b)) = (if pocs K then v_aid b else v_aid a) /\
  v_aid (snd (swap_vec K a b)) = (if pocs K then v_aid a else v_aid b).
Proof. exact swap_spec. Qed.
Print Assumptions C08_swap.

(* the allocator after copy construction, copy assignment and move assignment for EVERY
   well-formed parameter list, non-trivial value types included (NtWorld.v); what the target
   represents and what is left of the source is C09's part of each statement *)
Theorem C08_copy_construction_every_list : forall L, wf_plist L = true ->
  forall K src l junk nb, Rep L src l ->
  let '(d, src', evs, nb') := copy_ctor K L src junk nb in
  Rep L d l /\ src' = src /\ v_aid d = soccc K (v_aid src) /\
  v_cap d = v_cap src /\ v_fixed d = v_fixed src /\ v_bid d = Some nb.
Proof. exact copy_ctor_spec_nt. Qed.
Print Assumptions C08_copy_construction_every_list.

Theorem C08_copy_assignment_every_list : forall L, wf_plist L = true ->
  forall K d src l junk nb, Rep L src l ->
  let '(d', src', evs, nb') := copy_assign K L d src junk nb in
  Rep L d' l /\ src' = src /\
  v_aid d' = (if pocca K then v_aid src else v_aid d) /\
  v_cap d' = v_cap src /\ v_fixed d' = v_fixed src.
Proof. exact copy_assign_spec_nt. Qed.
Print Assumptions C08_copy_assignment_every_list.

Theorem C08_move_assignment_every_list : forall L, wf_plist L = true ->
  forall K d src l junk nb, Rep L src l ->
  let '(d', src', evs, nb') := move_assign K L d src junk nb in
  Rep L d' l /\
  v_aid d' = (if pocma K then v_aid src else v_aid d) /\
  (src' = moved_from src \/ exists ms, src' = set_mem src ms).
Proof. exact move_assign_spec_nt. Qed.
Print Assumptions C08_move_assignment_every_list.
