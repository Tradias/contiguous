(* Refine.v — refinement of the byte-level vector model to a plain list of tuples
   (property C01).  Each operation
   preserves the representation invariant [Rep] and produces the spec machine's result.
   Reading, emplace_back, resize, relocation into another block, construction and the
   induction over histories are treated for every parameter list; erase with elements behind
   the erased ones, and with it the step and history theorems of this file, for lists whose
   value types are all trivially relocatable ([all_triv]), where the tail moves by one memmove. *)
From Coq Require Import ZArith Lia List Bool.
From Cntgs Require Import ListAux Layout LayoutThm Mem MemLemmas Vector Spec Rep StableThm ElemLemmas Ordered EsizeThm.
Import ListNotations.
Local Open Scope Z_scope.

Lemma Forall2_map_l_ {A B C} (P : C -> B -> Prop) (f : A -> C) l1 l2 :
  Forall2 (fun a b => P (f a) b) l1 l2 -> Forall2 P (map f l1) l2.
Proof. induction 1; cbn; constructor; auto. Qed.

(* the address table after the [k] slots from index [from] on have moved to index [to] and the
   slot behind them has been set: its first to + k entries *)
Lemma shift_slots_spec (s : list (option Z)) offs (from to k : nat) d x :
  (to <= from)%nat -> (from + k)%nat = length offs -> (length offs <= length s)%nat ->
  firstn (length offs) s = map Some offs ->
  let s' := upd (to + k) x (shift_slots s from to d k) in
  length s' = length s /\
  firstn (to + k) s' = map Some (firstn to offs ++ map (fun y => y + - d) (skipn from offs)) /\
  ((to + k < length s)%nat -> nth (to + k) s' None = x).
Proof.
  intros Htf Hk Hls Hfs.
  assert (Hl1 : length (firstn to s ++ map (option_map (fun y => y - d)) (firstn k (skipn from s))) = (to + k)%nat)
    by (rewrite app_length, map_length, !firstn_length_le; rewrite ?skipn_length; lia).
  assert (Hl : length (shift_slots s from to d k) = length s)
    by (unfold shift_slots; rewrite app_assoc, app_length, Hl1, skipn_length; lia).
  split; [rewrite upd_length; exact Hl|]. split; [|intros Hlt; apply upd_nth_same; lia].
  rewrite firstn_upd_ge by lia. unfold shift_slots.
  rewrite app_assoc, firstn_app, Hl1, Nat.sub_diag. cbn [firstn]. rewrite app_nil_r. rewrite firstn_all2 by (rewrite Hl1; lia).
  rewrite map_app. f_equal.
  - rewrite <- firstn_map, <- Hfs. rewrite firstn_firstn, Nat.min_l by lia. reflexivity.
  - rewrite firstn_skipn_comm, Hk, Hfs, skipn_map, !map_map. apply map_ext. reflexivity.
Qed.

Lemma resize_same L v : resize L v (vsize L v) = v.
Proof.
  unfold resize, vsize. destruct (has_varying L); [rewrite Z.ltb_irrefl; reflexivity|destruct v; reflexivity].
Qed.

Section Refine.
  Variable L : list param.
  Hypothesis Hwf : wf_plist L = true.
  Lemma elem_at_ext m m' a t fc : tuple_ok L fc 0 t ->
    (forall x, a <= x < elem_end L a t -> m' x = m x) -> elem_at L m a t -> elem_at L m' a t.
  Proof. intros Ht Hx H. exact (elem_from_ext L _ m m' a t fc 0 (wf_plist_Forall L Hwf) Ht Hx H). Qed.

  Lemma elem_at_shift m m' a t fc d : tuple_ok L fc 0 t -> (SA L | d) ->
    (forall x, a <= x < elem_end L a t -> m' (x + d) = m x) -> elem_at L m a t -> elem_at L m' (a + d) t.
  Proof.
    intros Ht Hd Hx H. refine (elem_from_shift L _ m m' a t fc 0 d (wf_plist_Forall L Hwf) Ht _ Hx H).
    intros p Hp. eapply Z.divide_trans; [apply SA_div; [apply wf_plist_Forall; exact Hwf|exact Hp]|exact Hd].
  Qed.

  Lemma rep_vsize v l offs : RepO L v l offs -> vsize L v = Z.of_nat (length l).
  Proof.
    intros R. pose proof (r_loc _ _ _ _ R) as Hl. unfold vsize. destruct (has_varying L); tauto.
  Qed.

  Lemma read_elem_spec m a t fixed :
    tuple_ok L (fixed_counts L fixed) 0 t -> elem_at L m a t -> read_elem L fixed m a = t.
  Proof.
    intros Ht He. unfold read_elem. rewrite (load_table L Hwf fixed m a t Ht He).
    exact (read_fields_spec L (prevs L) m a t _ 0 (wf_plist_Forall L Hwf) Ht He).
  Qed.

  (* what a user can read: size() and every field of every element, through the load path *)
  Theorem rep_observe v l : Rep L v l ->
    vsize L v = Z.of_nat (length l) /\
    forall i, (i < length l)%nat ->
      read_elem L (v_fixed v) (v_mem v) (eaddr L v (Z.of_nat i)) = nth i l [].
  Proof.
    intros [offs R]. split; [exact (rep_vsize v l offs R)|]. intros i Hi.
    destruct (rep_nth L Hwf v l offs i R Hi) as (_ & _ & _ & Ht & He).
    rewrite (rep_addr L v l offs i R Hi). exact (read_elem_spec _ _ _ _ Ht He).
  Qed.

  Lemma store_spec vals bid m a fc : tuple_ok L fc 0 vals ->
    let r := store L vals bid m a in
    snd r = elem_end L a vals /\ elem_at L (fst (fst r)) a vals /\
    (forall x, x < a \/ snd r <= x -> fst (fst r) x = m x) /\ a <= snd r.
  Proof.
    intros Ht. apply (store_from_spec L (prevs L) vals bid m a fc 0 (wf_plist_Forall L Hwf) Ht).
    rewrite prevs_length. lia.
  Qed.

  Lemma Forall2_elem_at_shift m m' offs l fc lo hi d :
    Forall (tuple_ok L fc 0) l -> (SA L | d) ->
    Forall2 (fun a t => lo <= a /\ (SA L | a) /\ elem_end L a t <= hi) offs l ->
    (forall x, lo <= x < hi -> m' (x + d) = m x) ->
    Forall2 (fun a t => elem_at L m a t) offs l ->
    Forall2 (fun a t => elem_at L m' a t) (map (fun x => x + d) offs) l.
  Proof.
    intros Ht Hd Hb Hx H. revert Ht Hb. induction H as [|a t o' l' Hat _ IH]; intros Ht Hb; cbn [map]; constructor;
      inversion Ht as [|? ? Ht1 Ht2]; inversion Hb as [|? ? ? ? (B1 & B2 & B3) Hb2]; subst.
    - apply (elem_at_shift m m' a t fc d Ht1 Hd); [|exact Hat]. intros x Hxx. apply Hx. lia.
    - exact (IH Ht2 Hb2).
  Qed.

  Lemma packed_ext fc m m' offs l hi : packed L fc m offs l hi ->
    (forall x, 0 <= x < hi -> m' x = m x) -> packed L fc m' offs l hi.
  Proof.
    intros P Hx. destruct (packed_ordered L Hwf _ _ _ _ _ P) as [Ho _]. destruct P as (Ht & He & Hti).
    split; [exact Ht|split; [|exact Hti]].
    rewrite <- (map_id offs), (map_ext id (fun x => x + 0)) by (intros x; symmetry; apply Z.add_0_r).
    apply (Forall2_elem_at_shift m m' offs l fc 0 hi 0 Ht (Z.divide_0_r _) (eo_bounds L Hwf _ _ _ _ Ho)); [|exact He].
    intros x Hxx. rewrite Z.add_0_r. exact (Hx x Hxx).
  Qed.

  Lemma packed_snoc fc m m' offs l hi a t hi' : packed L fc m offs l hi -> tuple_ok L fc 0 t ->
    a = first_align L hi -> (forall x, x < a -> m' x = m x) -> elem_at L m' a t ->
    hi' = elem_end L a t \/ hi' = first_align L (elem_end L a t) ->
    packed L fc m' (offs ++ [a]) (l ++ [t]) hi'.
  Proof.
    intros P Ht Ha Hx He Hh. pose proof (first_align_ge L hi Hwf) as Hge.
    destruct (packed_ext fc m m' offs l hi P) as (HT & HE & Hti); [intros x Hxx; apply Hx; lia|].
    split; [apply Forall_app; split; [exact HT|constructor; [exact Ht|constructor]]|].
    split; [apply Forall2_app; [exact HE|constructor; [exact He|constructor]]|].
    exact (et_snoc L Hwf 0 offs l hi a t hi' Hti Ha Hh).
  Qed.

  Lemma packed_firstn fc m offs l hi n : packed L fc m offs l hi -> (n < length l)%nat ->
    packed L fc m (firstn n offs) (firstn n l) (nth n offs 0).
  Proof.
    intros (Ht & He & Hti) Hn. split; [apply Forall_firstn_; exact Ht|]. split; [apply Forall2_firstn_; exact He|].
    apply (et_firstn L n 0 offs l hi Hti). rewrite (et_length L _ _ _ _ Hti). exact Hn.
  Qed.

  (* elements to .. from-1 removed: the elements from index [from] on, which start at [b], are
     moved as one block onto [a], the start of element [to] *)
  Lemma packed_remove fc m offs l hi (to from : nat) a b : packed L fc m offs l hi ->
    (to < from < length l)%nat -> a = nth to offs 0 -> b = nth from offs 0 ->
    (SA L | b - a) /\
    packed L fc (mmove m b a (hi - b)) (firstn to offs ++ map (fun x => x + - (b - a)) (skipn from offs))
           (firstn to l ++ skipn from l) (hi - (b - a)).
  Proof.
    intros P Htf Ea Eb.
    pose proof (packed_firstn fc m offs l hi to P ltac:(lia)) as Pf. rewrite <- Ea in Pf.
    destruct (packed_ext fc m (mmove m b a (hi - b)) _ _ a Pf) as (HTf & HEf & HTif); [intros x Hx; apply mmove_out; lia|].
    destruct (packed_ordered L Hwf _ _ _ _ _ P) as [Hord _]. destruct P as (HT & HE & HTi).
    pose proof (eo_length L _ _ _ _ Hord) as Hlen.
    destruct (eo_end_firstn_le L to 0 offs l _ Hord ltac:(lia)) as [_ HdA].
    destruct (eo_end_firstn_le L from 0 offs l _ Hord ltac:(lia)) as [HleB HdB].
    pose proof (et_nth L to 0 offs l _ HTi ltac:(lia)) as Hnth.
    pose proof (eo_skipn L from _ _ _ _ Hord) as HoB. pose proof (et_skipn L from 0 offs l _ HTi) as HtB.
    rewrite <- Ea in HdA, Hnth. rewrite <- Eb in HleB, HdB.
    assert (HdS : (SA L | - (b - a))) by (apply Z.divide_opp_r, Z.divide_sub_r; assumption).
    pose proof (skipn_nth_cons 0 from offs ltac:(lia)) as Eo. rewrite <- Eb in Eo.
    pose proof (@skipn_nth_cons tuple [] from l ltac:(lia)) as El.
    assert (HoB' : elems_ordered L b (skipn from offs) (skipn from l) hi)
      by (rewrite Eo, El in *; cbn [elems_ordered] in *; intuition lia).
    split; [apply Z.divide_sub_r; assumption|]. split; [|split].
    - apply Forall_app. split; [exact HTf|apply Forall_skipn_; exact HT].
    - apply Forall2_app; [exact HEf|].
      refine (Forall2_elem_at_shift m _ _ _ fc b hi _ (Forall_skipn_ _ from l HT) HdS
                (eo_bounds L Hwf _ _ _ _ HoB') _ (Forall2_skipn_ _ _ _ from HE)).
      intros x Hx. rewrite mmove_in by lia. f_equal. lia.
    - (* tight packing: the tail is translated as a whole onto the slot of element [to] *)
      pose proof (et_shift L Hwf _ _ _ _ _ HdS HtB) as HtS. rewrite Eo, El in *. cbn [map elems_tight] in *.
      refine (et_app L _ _ _ _ _ _ _ _ _ HTif _).
      split; [lia|tauto].
  Qed.

  Theorem emplace_rep v l t :
    Rep L v l -> Z.of_nat (length l) < v_cap v -> tuple_ok L (fixed_counts L (v_fixed v)) 0 t ->
    Rep L (fst (emplace_back L v t)) (l ++ [t]).
  Proof.
    intros [offs R] Hcap Ht. pose proof (rep_packed L v l offs R) as P. pose proof (r_loc _ _ _ _ R) as Hloc.
    assert (Hl1 : length (l ++ [t]) = S (length l)) by (rewrite app_length, Nat.add_1_r; reflexivity).
    unfold emplace_back, dend in *. destruct (has_varying L) eqn:Hv.
    - destruct Hloc as (Hsz & Hsl & Hfs & _).
      destruct (store_spec t (bidn (v_bid v)) (v_mem v) (first_align L (v_last v)) _ Ht) as (He & Hel & Hfr & _).
      destruct (store L t _ _ _) as [[m' evs] e]. cbn [fst snd] in *.
      exists (offs ++ [first_align L (v_last v)]).
      apply (RepO_tbl L Hwf); cbn [v_fixed v_mem v_cap v_tbl v_last set_tbl set_mem set_slots t_size t_slots];
        rewrite ?Hl1; auto; try lia.
      + eapply packed_snoc; eauto.
      + rewrite upd_length. exact Hsl.
      + replace (Z.to_nat (t_size (v_tbl v))) with (length l) by lia.
        rewrite upd_firstn_snoc by lia. rewrite Hfs, map_app. reflexivity.
    - (* fixed stride: the data ends at an aligned address, one stride further afterwards *)
      destruct Hloc as (Hcnt & _ & Hst).
      destruct (stride_slot L _ _ (length l) Hst) as [_ HaS]. pose proof (stride_next L _ _ (length l) t Hst Ht) as Hnext.
      rewrite <- Hcnt in HaS, Hnext.
      destruct (store_spec t (bidn (v_bid v)) (v_mem v) (v_stride v * v_count v) _ Ht) as (He & Hel & Hfr & _).
      destruct (store L t _ _ _) as [[m' evs] e]. cbn [fst snd] in *.
      exists (offs ++ [v_stride v * v_count v]).
      apply (RepO_fix L Hwf); cbn [v_fixed v_mem v_cap v_count v_stride set_count set_mem]; rewrite ?Hl1; auto; try lia.
      eapply packed_snoc; eauto; [symmetry; apply first_align_aligned; assumption|]. right. rewrite Hnext, Hcnt. f_equal. lia.
  Qed.

  (* the first n elements; what lay behind them may have been overwritten (pop_back and erase
     destroy before they shrink).  The data then ends where element n started *)
  Lemma shrink_rep v l offs n m' : RepO L v l offs -> (n < length l)%nat ->
    (forall x, 0 <= x < nth n offs 0 -> m' x = v_mem v x) ->
    RepO L (resize L (set_mem v m') (Z.of_nat n)) (firstn n l) (firstn n offs).
  Proof.
    intros R Hn Hm. pose proof (r_loc _ _ _ _ R) as Hloc. pose proof (r_cap _ _ _ _ R) as Hcap.
    pose proof (packed_ext _ _ m' _ _ _ (packed_firstn _ _ _ _ _ n (rep_packed L v l offs R) Hn) Hm) as P.
    rewrite <- (rep_addr L v l offs n R Hn) in P.
    assert (Hfl : length (firstn n l) = n) by (rewrite firstn_length; lia).
    unfold resize, eaddr in *. destruct (has_varying L) eqn:Hv.
    - destruct Hloc as (Hsz & Hsl & Hfs & _).
      replace (Z.of_nat n <? t_size (v_tbl (set_mem v m'))) with true by (symmetry; apply Z.ltb_lt; cbn [v_tbl set_mem]; lia).
      apply (RepO_tbl L Hwf); cbn [v_fixed v_mem v_cap v_tbl v_last set_tbl set_mem set_slots t_size t_slots];
        rewrite ?Hfl; auto; try lia.
      rewrite <- (firstn_firstn_le_ _ n (length l)) by lia. rewrite Hfs. apply firstn_map.
    - destruct Hloc as (Hcnt & _ & Hst).
      apply (RepO_fix L Hwf); cbn [v_fixed v_mem v_cap v_count v_stride set_count set_mem]; rewrite ?Hfl; auto; lia.
  Qed.

  Theorem resize_rep v l n : Rep L v l -> (n <= length l)%nat ->
    Rep L (resize L v (Z.of_nat n)) (firstn n l).
  Proof.
    intros [offs R] Hn. exists (firstn n offs). destruct (Nat.eq_dec n (length l)) as [->|Hne].
    - rewrite firstn_all, (firstn_all2 offs) by (rewrite (rep_len L v l offs R); lia).
      rewrite <- (rep_vsize v l offs R), resize_same. exact R.
    - pose proof (shrink_rep v l offs n (v_mem v) R ltac:(lia) ltac:(reflexivity)) as H. rewrite set_mem_id in H. exact H.
  Qed.

  (* the elements of [src] in another block [m'] that agrees with the source on [0, data_end):
     same offsets, a table of [ncap] slots *)
  Lemma rep_relocate src l ncap b u a m' tbid T : Rep L src l -> Z.of_nat (length l) <= ncap ->
    (forall x, 0 <= x < dend L src -> m' x = v_mem src x) ->
    Rep L {| v_cap := ncap; v_bid := b; v_units := u; v_aid := a; v_mem := m';
             v_fixed := v_fixed src; v_count := v_count src; v_stride := v_stride src;
             v_tbl := if has_varying L then tbl_relocate (v_tbl src) ncap tbid else T;
             v_last := v_last src |} l.
  Proof.
    intros [offs R] Hcap Hm. pose proof (r_loc _ _ _ _ R) as Hloc. pose proof (r_cap _ _ _ _ R) as Hcap0.
    pose proof (packed_ext _ _ m' _ _ _ (rep_packed L src l offs R) Hm) as P.
    exists offs. unfold dend in P. destruct (has_varying L) eqn:Hv.
    - destruct Hloc as (Hsz & Hsl & Hfs & _).
      apply (RepO_tbl L Hwf); cbn [v_fixed v_mem v_cap v_tbl v_last tbl_relocate t_size t_slots]; auto.
      + rewrite firstn_length, app_length, repeat_length. lia.
      + rewrite firstn_firstn, Nat.min_l by lia. rewrite Hsz, Nat2Z.id.
        rewrite firstn_app, firstn_firstn, Nat.min_id, firstn_length.
        replace (length l - Init.Nat.min (length l) (length (t_slots (v_tbl src))))%nat with 0%nat by lia.
        cbn [firstn]. rewrite app_nil_r. exact Hfs.
    - destruct Hloc as (Hcnt & _ & Hst). apply (RepO_fix L Hwf); auto.
  Qed.

  Lemma rep_mem_ext v l offs m' : RepO L v l offs ->
    (forall x, 0 <= x < dend L v -> m' x = v_mem v x) -> RepO L (set_mem v m') l offs.
  Proof.
    intros R Hx. destruct (packed_ext _ _ m' _ _ _ (rep_packed L v l offs R) Hx) as (Ht & He & Hti).
    exact (Build_RepO L (set_mem v m') l offs Ht He (r_order _ _ _ _ R) (r_cap _ _ _ _ R) (r_loc _ _ _ _ R) Hti).
  Qed.

  Theorem move_resize_rep v l (to from : nat) : Rep L v l -> (to < from <= length l)%nat ->
    Rep L (resize L (fst (move_forward_triv L v (Z.of_nat from) (Z.of_nat to)))
                  (Z.of_nat (length l) - (Z.of_nat from - Z.of_nat to)))
          (firstn to l ++ skipn from l).
  Proof.
    intros [offs R] Htf.
    pose proof (r_loc _ _ _ _ R) as Hloc. pose proof (rep_len L v l offs R) as Hlen. pose proof (r_cap _ _ _ _ R) as Hcap.
    (* k elements follow the erased ones *)
    remember (length l - from)%nat as k eqn:Ek. assert (Hk : (from + k)%nat = length l) by lia. clear Ek.
    replace (Z.of_nat (length l) - (Z.of_nat from - Z.of_nat to)) with (Z.of_nat (to + k)) by lia.
    destruct k as [|k'].
    - (* none: the move is void *)
      rewrite Nat.add_0_r in *. subst from. rewrite skipn_all, app_nil_r.
      unfold move_forward_triv. destruct (has_varying L) eqn:Hv.
      + destruct Hloc as (Hsz & _). rewrite Hsz, Z.eqb_refl. cbn [andb fst].
        apply resize_rep; [exists offs; exact R|lia].
      + cbn [andb fst]. apply resize_rep; [|lia]. exists offs. apply rep_mem_ext; auto.
        intros x Hx. apply mmove_out. unfold eaddr, dend. rewrite Hv. destruct Hloc as (-> & _). lia.
    - remember (S k') as k eqn:Ek. assert (Hfn : (from < length l)%nat) by lia. clear Ek k'.
      pose proof (rep_addr L v l offs to R ltac:(lia)) as Ea. pose proof (rep_addr L v l offs from R Hfn) as Eb.
      destruct (packed_remove _ _ _ _ _ to from _ _ (rep_packed L v l offs R) ltac:(lia) Ea Eb) as [HdS P].
      set (tgt := eaddr L v (Z.of_nat to)) in *. set (src := eaddr L v (Z.of_nat from)) in *.
      assert (HlN : length (firstn to l ++ skipn from l) = (to + k)%nat) by (rewrite app_length, firstn_length, skipn_length; lia).
      unfold move_forward_triv. fold tgt src.
      exists (firstn to offs ++ map (fun x => x + - (src - tgt)) (skipn from offs)).
      unfold resize, dend in *. destruct (has_varying L) eqn:Hv.
      + destruct Hloc as (Hsz & Hsl & Hfs & _).
        replace (Z.of_nat from =? t_size (v_tbl v)) with false by (symmetry; apply Z.eqb_neq; lia).
        cbn [andb fst v_tbl set_tbl set_mem set_slots t_size t_slots].
        replace (Z.of_nat (to + k) <? t_size (v_tbl v)) with true by (symmetry; apply Z.ltb_lt; lia).
        replace (Z.to_nat (t_size (v_tbl v) - Z.of_nat from)) with k by lia. rewrite !Nat2Z.id.
        rewrite <- Hlen in Hfs, Hk.
        destruct (shift_slots_spec (t_slots (v_tbl v)) offs from to k (src - tgt) (Some (v_last v - (src - tgt))))
          as (Hl' & Hfs' & Hnth'); [lia|exact Hk|lia|exact Hfs|].
        apply (RepO_tbl L Hwf); cbn [v_fixed v_mem v_cap v_tbl v_last set_tbl set_mem set_slots t_size t_slots];
          rewrite ?HlN; auto; try lia.
        (* the new end of data is read from the slot behind the moved ones *)
        unfold slotv, slot. cbn [v_tbl set_tbl set_slots t_slots]. rewrite Nat2Z.id, Hnth' by lia. exact P.
      + destruct Hloc as (Hcnt & _ & Hst). cbn [andb fst].
        apply (RepO_fix L Hwf); cbn [v_fixed v_mem v_cap v_count v_stride set_count set_mem];
          rewrite ?HlN; auto; try lia.
        replace (v_stride v * Z.of_nat (to + k)) with (v_stride v * v_count v - (src - tgt)); [exact P|].
        unfold src, tgt, eaddr. rewrite Hv. replace (Z.of_nat (to + k)) with (v_count v - Z.of_nat from + Z.of_nat to) by lia. ring.
  Qed.

  Theorem mkvec_rep cap budget fixed aid junk bid tbid : 0 <= cap ->
    (has_varying L = false -> stride_ok L (fixed_counts L fixed) (snd (esize L fixed))) ->
    let v := fst (mkvec L cap budget fixed aid junk bid tbid) in
    Rep L v [] /\ v_cap v = cap /\ v_fixed v = fixed.
  Proof.
    intros Hcap Hst. unfold mkvec. cbn [fst v_cap v_fixed]. split; [|auto].
    assert (P : forall fc m, packed L fc m [] [] 0) by (intros fc m; repeat constructor).
    exists []. destruct (has_varying L) eqn:Hv.
    - apply (RepO_tbl L Hwf); cbn [v_cap v_tbl v_last t_size t_slots length firstn map]; auto; try lia.
      rewrite repeat_length. lia.
    - apply (RepO_fix L Hwf); cbn [v_cap v_count v_stride v_fixed length]; auto; try lia.
      rewrite Z.mul_0_r. apply P.
  Qed.

  (* the stride the constructor computes is a stride in the sense of the invariant *)
  Lemma mkvec_rep_ok cap budget fixed aid junk bid tbid : 0 <= cap -> Forall (fun c => 0 <= c) fixed ->
    let v0 := fst (mkvec L cap budget fixed aid junk bid tbid) in
    Rep L v0 [] /\ v_cap v0 = cap /\ v_fixed v0 = fixed.
  Proof.
    intros Hcap Hfx. apply mkvec_rep; [exact Hcap|]. intros Hnv.
    apply esize_stride_ok; [exact Hwf|exact Hnv|]. apply fixed_counts_nonneg. exact Hfx.
  Qed.

  Definition cap_ok (v : vec) (s : svec) : Prop := v_cap v = s_cap s.

  Fixpoint vrun (junk : mem) (v : vec) (h : list sop) : vec :=
    match h with [] => v | o :: h' => vrun junk (vstep L junk v o) h' end.
  Fixpoint srun (s : svec) (h : list sop) : svec :=
    match h with [] => s | o :: h' => srun (sstep s o) h' end.

  (* the induction of every history theorem: [I] relates the vector, the spec machine and the
     rest of the history (what restricts its steps, what is threaded through it) *)
  Lemma vrun_ind (I : vec -> svec -> list sop -> Prop) junk :
    (forall v s o h, I v s (o :: h) -> svalid L (fixed_counts L (v_fixed v)) s o -> I (vstep L junk v o) (sstep s o) h) ->
    forall h v s, I v s h -> shist_valid L (fixed_counts L (v_fixed v)) s h -> I (vrun junk v h) (srun s h) [].
  Proof.
    intros Hstep. induction h as [|o h IH]; intros v s Hi Hv; [exact Hi|].
    cbn [vrun srun shist_valid] in *. destruct Hv as [Hv1 Hv2].
    apply IH; [exact (Hstep v s o h Hi Hv1)|]. rewrite (proj1 (vstep_cap_fixed L junk v o)). exact Hv2.
  Qed.

  Lemma shist_valid_app fc h1 : forall s h2, shist_valid L fc s (h1 ++ h2) -> shist_valid L fc s h1.
  Proof. induction h1 as [|o h1 IH]; intros s h2 H; cbn in *; [exact I|]. destruct H as [H1 H2]. split; eauto. Qed.

  (* trivially relocatable lists: objects are neither constructed nor destroyed element by
     element, and the elements behind erased ones move by one memmove *)
  Section Triv.
  Hypothesis Htriv : all_triv L = true.

  Lemma all_triv_ctriv : all_ctriv true L = true.
  Proof. apply andb_true_iff in Htriv. tauto. Qed.
  Lemma all_triv_dtriv : all_dtriv L = true.
  Proof. apply andb_true_iff in Htriv. tauto. Qed.

  Lemma destruct_elem_triv v i : destruct_elem L v i = (v, []).
  Proof. unfold destruct_elem. now rewrite all_triv_dtriv. Qed.

  Lemma insert_into_triv_gen mv destr v bid junk : all_ctriv mv L = true ->
    insert_into mv destr L v bid junk =
      (v, mcopy (v_mem v) 0 junk 0 (dend L v), [ERaw bid 0 (dend L v)]).
  Proof. intros Hc. unfold insert_into. rewrite Hc, all_triv_dtriv, orb_true_r. reflexivity. Qed.
  Lemma insert_into_triv destr v bid junk :
    insert_into true destr L v bid junk =
      (v, mcopy (v_mem v) 0 junk 0 (dend L v), [ERaw bid 0 (dend L v)]).
  Proof. apply insert_into_triv_gen. exact all_triv_ctriv. Qed.

  Theorem reserve_rep v l n b junk bid tbid : Rep L v l ->
    Rep L (fst (reserve L v n b junk bid tbid)) l /\
    v_cap (fst (reserve L v n b junk bid tbid)) = Z.max (v_cap v) n /\
    v_fixed (fst (reserve L v n b junk bid tbid)) = v_fixed v.
  Proof.
    intros R. unfold reserve.
    destruct (Z.ltb_spec (v_cap v) n) as [Hlt|Hge]; [|cbn [fst]; split; [exact R|split; [lia|reflexivity]]].
    rewrite insert_into_triv. cbn [fst v_cap v_fixed]. split; [|split; [lia|reflexivity]].
    apply rep_relocate; [exact R| |intros x Hx; rewrite mcopy_in by lia; f_equal; lia].
    destruct R as [offs R]. pose proof (r_cap _ _ _ _ R). lia.
  Qed.

  Lemma move_forward_triv_eq v from to : move_forward L v from to = move_forward_triv L v from to.
  Proof. unfold move_forward. now rewrite Htriv. Qed.

  Theorem pop_back_rep v l : Rep L v l -> l <> [] -> Rep L (fst (pop_back L v)) (removelast l).
  Proof.
    intros R Hl. unfold pop_back. rewrite destruct_elem_triv.
    rewrite (proj1 (rep_observe v l R)). rewrite removelast_firstn_len.
    replace (Z.of_nat (length l) - 1) with (Z.of_nat (Init.Nat.pred (length l))) by (destruct l; [congruence|cbn [length]; lia]).
    apply resize_rep; auto. lia.
  Qed.

  Theorem clear_rep v l : Rep L v l -> Rep L (fst (clear L v)) [].
  Proof.
    intros R. unfold clear. rewrite all_triv_dtriv. exact (resize_rep v l 0 R ltac:(lia)).
  Qed.

  Theorem erase_rep v l i : Rep L v l -> 0 <= i < Z.of_nat (length l) ->
    Rep L (fst (erase L v i)) (remove_range (Z.to_nat i) (S (Z.to_nat i)) l).
  Proof.
    intros R Hi. unfold erase. rewrite destruct_elem_triv, move_forward_triv_eq.
    rewrite (proj1 (rep_observe v l R)).
    pose proof (move_resize_rep v l (Z.to_nat i) (S (Z.to_nat i)) R ltac:(lia)) as H.
    rewrite Nat2Z.inj_succ, Z2Nat.id in H by lia. change (Z.succ i) with (i + 1) in H.
    destruct (move_forward_triv L v (i + 1) i) as [v2 e2].
    replace (Z.of_nat (length l) - 1) with (Z.of_nat (length l) - (i + 1 - i)) by lia. exact H.
  Qed.

  Theorem erase_range_rep v l i j : Rep L v l -> 0 <= i <= j -> j <= Z.of_nat (length l) ->
    Rep L (fst (erase_range L v i j)) (remove_range (Z.to_nat i) (Z.to_nat j) l).
  Proof.
    intros R Hi Hj. unfold erase_range. rewrite all_triv_dtriv, move_forward_triv_eq.
    rewrite (proj1 (rep_observe v l R)). unfold remove_range.
    destruct (Z.eqb_spec i j) as [Heq|Hneq]; [rewrite andb_false_r|rewrite andb_true_r; destruct (Z.ltb_spec j (Z.of_nat (length l))) as [Hlt|Hge]];
      cbn [fst].
    - (* empty range *)
      subst j. rewrite Z.sub_diag, Z.sub_0_r, firstn_skipn.
      rewrite <- (firstn_all l) at 2. apply resize_rep; auto.
    - (* elements behind the range move forward *)
      pose proof (move_resize_rep v l (Z.to_nat i) (Z.to_nat j) R ltac:(lia)) as H. rewrite !Z2Nat.id in H by lia.
      destruct (move_forward_triv L v j i) as [v2 e2]. exact H.
    - (* the tail is erased *)
      assert (j = Z.of_nat (length l)) by lia. subst j.
      rewrite Nat2Z.id, skipn_all, app_nil_r.
      replace (Z.of_nat (length l) - (Z.of_nat (length l) - i)) with (Z.of_nat (Z.to_nat i)) by lia.
      apply resize_rep; auto. lia.
  Qed.

  Theorem vstep_rep junk v s o :
    Rep L v (s_elems s) -> cap_ok v s -> svalid L (fixed_counts L (v_fixed v)) s o ->
    Rep L (vstep L junk v o) (s_elems (sstep s o)) /\ cap_ok (vstep L junk v o) (sstep s o) /\
    v_fixed (vstep L junk v o) = v_fixed v.
  Proof.
    intros R Hc Hv. destruct (vstep_cap_fixed L junk v o) as [Hf Hcap]. unfold cap_ok in *.
    split; [|split; [|exact Hf]].
    - destruct o as [t| |i|i j| |n b]; cbn [vstep sstep s_elems svalid] in *.
      + apply emplace_rep; [exact R|lia|tauto].
      + apply pop_back_rep; assumption.
      + apply erase_rep; assumption.
      + apply erase_range_rep; tauto.
      + exact (clear_rep v (s_elems s) R).
      + apply reserve_rep. exact R.
    - destruct o; cbn [sstep s_cap]; congruence.
  Qed.

  (* Every valid history: the byte-level vector represents exactly the list of tuples the
     spec machine holds (for every prefix of the history: [refinement_every_prefix]). *)
  Theorem vrun_rep junk h : forall v s,
    Rep L v (s_elems s) -> cap_ok v s -> shist_valid L (fixed_counts L (v_fixed v)) s h ->
    Rep L (vrun junk v h) (s_elems (srun s h)) /\ cap_ok (vrun junk v h) (srun s h).
  Proof.
    intros v s R Hc Hv. apply (vrun_ind (fun v s _ => Rep L v (s_elems s) /\ cap_ok v s) junk); auto.
    intros v' s' o _ [R' Hc'] Hv'. destruct (vstep_rep junk v' s' o R' Hc' Hv') as (A & B & _). auto.
  Qed.

  Theorem rep_obs v l : Rep L v l ->
    vsize L v = Z.of_nat (length l) /\
    forall i, (i < length l)%nat ->
      read_elem L (v_fixed v) (v_mem v) (eaddr L v (Z.of_nat i)) = nth i l [].
  Proof using Hwf Htriv. exact (rep_observe v l). Qed.
  End Triv.
End Refine.

Theorem step_refines : forall L junk v s o,
  wf_plist L = true -> all_triv L = true ->
  Rep L v (s_elems s) -> v_cap v = s_cap s -> svalid L (fixed_counts L (v_fixed v)) s o ->
  Rep L (vstep L junk v o) (s_elems (sstep s o)) /\ v_cap (vstep L junk v o) = s_cap (sstep s o).
Proof.
  intros L junk v s o Hwf Ht R Hc Hv. destruct (vstep_rep L Hwf Ht junk v s o R Hc Hv) as (A & B & _). split; auto.
Qed.

Theorem rep_from_construction : forall L cap budget fixed aid junk bid tbid h,
  wf_plist L = true -> all_triv L = true -> 0 <= cap -> Forall (fun c => 0 <= c) fixed ->
  let v0 := fst (mkvec L cap budget fixed aid junk bid tbid) in
  let s0 := {| s_cap := cap; s_elems := [] |} in
  shist_valid L (fixed_counts L fixed) s0 h ->
  Rep L (vrun L junk v0 h) (s_elems (srun s0 h)) /\ v_cap (vrun L junk v0 h) = s_cap (srun s0 h).
Proof.
  intros L cap budget fixed aid junk bid tbid h Hwf Ht Hcap Hfx. cbv zeta. intros Hv.
  destruct (mkvec_rep_ok L Hwf cap budget fixed aid junk bid tbid Hcap Hfx) as (R0 & Hc0 & _).
  exact (vrun_rep L Hwf Ht junk h _ {| s_cap := cap; s_elems := [] |} R0 Hc0 Hv).
Qed.

Theorem refinement_from_construction : forall L cap budget fixed aid junk bid tbid h,
  wf_plist L = true -> all_triv L = true -> 0 <= cap -> Forall (fun c => 0 <= c) fixed ->
  let v0 := fst (mkvec L cap budget fixed aid junk bid tbid) in
  let s0 := {| s_cap := cap; s_elems := [] |} in
  shist_valid L (fixed_counts L fixed) s0 h ->
  let v := vrun L junk v0 h in
  let s := srun s0 h in
  vsize L v = Z.of_nat (length (s_elems s)) /\
  v_cap v = s_cap s /\
  forall i, (i < length (s_elems s))%nat ->
    read_elem L (v_fixed v) (v_mem v) (eaddr L v (Z.of_nat i)) = nth i (s_elems s) [].
Proof.
  intros L cap budget fixed aid junk bid tbid h Hwf Ht Hcap Hfx. cbv zeta. intros Hv.
  destruct (rep_from_construction L cap budget fixed aid junk bid tbid h Hwf Ht Hcap Hfx Hv) as (R & Hc).
  destruct (rep_observe L Hwf _ _ R) as (H1 & H2). auto.
Qed.

Theorem refinement_every_prefix : forall L cap budget fixed aid junk bid tbid h1 h2,
  wf_plist L = true -> all_triv L = true -> 0 <= cap -> Forall (fun c => 0 <= c) fixed ->
  let v0 := fst (mkvec L cap budget fixed aid junk bid tbid) in
  let s0 := {| s_cap := cap; s_elems := [] |} in
  shist_valid L (fixed_counts L fixed) s0 (h1 ++ h2) ->
  let v := vrun L junk v0 h1 in
  let s := srun s0 h1 in
  vsize L v = Z.of_nat (length (s_elems s)) /\
  v_cap v = s_cap s /\
  forall i, (i < length (s_elems s))%nat ->
    read_elem L (v_fixed v) (v_mem v) (eaddr L v (Z.of_nat i)) = nth i (s_elems s) [].
Proof.
  intros L cap budget fixed aid junk bid tbid h1 h2 Hwf Ht Hcap Hst. cbv zeta. intros Hv.
  apply refinement_from_construction; auto. eapply shist_valid_app; eauto.
Qed.

Theorem reserve_noop : forall L v n b junk bid tbid,
  n <= v_cap v -> reserve L v n b junk bid tbid = (v, []).
Proof.
  intros L v n b junk bid tbid H. unfold reserve.
  replace (v_cap v <? n) with false by (symmetry; apply Z.ltb_ge; lia). reflexivity.
Qed.
