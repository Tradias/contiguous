(* C18 — empty, zero-capacity and default-constructed vectors are fully usable. *)
From Coq Require Import ZArith List.
From Cntgs Require Import Layout Vector World Spec Rep StableThm Refine NtRefine LayoutHist.
Import ListNotations.
Local Open Scope Z_scope.

(* the refinement theorems (C01) hold from the empty state on and impose no lower bound on
   the capacity: capacity 0 is covered; an emptied vector represents the empty list *)
Theorem C18_clear_gives_empty : forall L v l, wf_plist L = true -> all_triv L = true ->
  Rep L v l -> Rep L (fst (clear L v)) [].
Proof. intros L v l Hwf Ht R. exact (clear_rep L Hwf Ht v l R). Qed.
Print Assumptions C18_clear_gives_empty.

(* [zero_inv]: element 0 starts at offset 0 and an empty vector has data_end() =
   data_begin(); established by construction, kept by emplace_back and every shrink *)
Theorem C18_fresh_vector : forall L cap budget fixed aid junk bid tbid,
  zero_inv L (fst (mkvec L cap budget fixed aid junk bid tbid)).
Proof. exact zero_inv_mkvec. Qed.
Print Assumptions C18_fresh_vector.

Theorem C18_emplace_keeps_zero_inv : forall L v t, wf_plist L = true -> 0 <= vsize L v ->
  (has_varying L = true -> (Z.to_nat (t_size (v_tbl v)) < length (t_slots (v_tbl v)))%nat) ->
  zero_inv L v -> zero_inv L (fst (emplace_back L v t)).
Proof. exact zero_inv_emplace. Qed.
Print Assumptions C18_emplace_keeps_zero_inv.

Theorem C18_shrink_keeps_zero_inv : forall L v n, 0 <= n -> zero_inv L v -> zero_inv L (resize L v n).
Proof. exact zero_inv_resize. Qed.
Print Assumptions C18_shrink_keeps_zero_inv.

Theorem C18_cleared_vector : forall L v, all_triv L = true -> 0 <= vsize L v -> zero_inv L v ->
  let v' := fst (clear L v) in
  vsize L v' = 0 /\ dend L v' = 0 /\ zero_inv L v'.
Proof. intros L v _. apply clear_empty. Qed.
Print Assumptions C18_cleared_vector.

(* a default-constructed vector: size 0, no memory, data_end() = data_begin(), nothing to
   free, clear() keeps it empty *)
Theorem C18_default_constructed : forall L,
  vsize L (vec_default L) = 0 /\ v_bid (vec_default L) = None /\ dend L (vec_default L) = 0 /\
  destroy L (vec_default L) = [] /\ vsize L (fst (clear L (vec_default L))) = 0.
Proof. exact default_vector_empty. Qed.
Print Assumptions C18_default_constructed.

(* every list, non-trivial value types included, and every way of becoming empty *)
Theorem C18_clear_gives_empty_every_list : forall L, wf_plist L = true ->
  forall v l, Rep L v l -> Rep L (fst (clear L v)) [].
Proof. exact clear_rep_nt. Qed.
Print Assumptions C18_clear_gives_empty_every_list.

Theorem C18_empty_state : forall L v, wf_plist L = true -> Rep L v [] -> vsize L v = 0 /\ dend L v = 0.
Proof. exact rep_empty. Qed.
Print Assumptions C18_empty_state.

(* a vector that is empty after ANY valid history from construction (never filled; emptied by
   pop_back / erase / erase(first,last) / clear, in any mixture with emplace_back and reserve;
   capacity 0 included): size() = 0, data_end() = data_begin(), and it represents the empty
   list - so whatever valid history follows is covered by the refinement theorem (C01) again:
   "after reserve / emplace_back it behaves like any other vector" *)
Theorem C18_emptied_after_every_history : forall L cap budget fixed aid junk bid tbid h,
  wf_plist L = true -> 0 <= cap -> Forall (fun c => 0 <= c) fixed ->
  let v0 := fst (mkvec L cap budget fixed aid junk bid tbid) in
  let s0 := {| s_cap := cap; s_elems := [] |} in
  shist_valid L (fixed_counts L fixed) s0 h -> nt_hist_okx L s0 h ->
  s_elems (srun s0 h) = [] ->
  let v := vrun L junk v0 h in
  Rep L v [] /\ vsize L v = 0 /\ dend L v = 0.
Proof. exact emptied_after_every_history. Qed.
Print Assumptions C18_emptied_after_every_history.
