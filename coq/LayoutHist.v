(* LayoutHist.v — the layout properties (C03 alignment, C04 order / containment / exact counts)
   in every represented state, hence after every valid history.  LayoutThm proves them for the
   placement function; here they are stated for what the library itself computes when element i
   of a vector is accessed: the field table Proxy.vfl (the loaded reference: address and object
   count of every field).  Then empty states (C18). *)
From Coq Require Import ZArith List Lia.
From Cntgs Require Import Layout LayoutThm Vector Proxy Spec Rep ElemLemmas Ordered Refine ElemThm NtRefine.
Import ListNotations.
Local Open Scope Z_scope.

Section RepLayout.
  Variable L : list param.
  Hypothesis Hwf : wf_plist L = true.
  Variables (v : vec) (l : list tuple) (offs : list Z).
  Hypothesis R : RepO L v l offs.

  Theorem rep_element_layout i : (i < length l)%nat ->
    let t := nth i l [] in
    let a := eaddr L v (Z.of_nat i) in
    let fl := vfl L v (Z.of_nat i) in
    (* C03: the element starts at a multiple of the storage alignment, every field at a
       multiple of its parameter's alignment *)
    0 <= a /\ (SA L | a) /\
    Forall2 (fun p x => (pal p | x)) L (map fst fl) /\
    (* C04: every field has exactly the object count of the stored tuple ... *)
    map snd fl = cnts_of t /\
    (* ... the first field starts at the element start, the byte extents of the fields are
       ordered, pairwise disjoint and inside [data_begin(), data_end()) of the element ... *)
    hd a (map fst fl) = a /\
    ordered_from a (extents L (cnts_of t) (map fst fl)) (elem_end L a t) /\
    (* ... the element lies inside [vector.data_begin(), vector.data_end()) and before the
       next element *)
    elem_end L a t <= dend L v /\
    (forall k, (i < k < length l)%nat -> elem_end L a t <= eaddr L v (Z.of_nat k)).
  Proof.
    intros Hi.
    destruct (rep_nth L Hwf v l offs i R Hi) as (Ha0 & HaS & Hend & Ht & He).
    unfold vfl. rewrite (rep_addr L v l offs i R Hi), (load_table L Hwf _ _ _ _ Ht He).
    pose proof (tuple_ok_cnt_ok L _ _ _ Ht) as Hc.
    fold (ref_fl L (nth i l []) (nth i offs 0)). rewrite (ref_fl_fst L _ _ _ Ht), (ref_fl_snd L _ _ _ Ht).
    split; [exact Ha0|]. split; [exact HaS|].
    split; [exact (place_aligned L _ _ Hwf Hc Ha0 HaS)|].
    split; [reflexivity|].
    split; [exact (place_first L _ _ Hwf Hc Ha0 HaS)|].
    split; [exact (place_ordered L _ _ Hwf Hc Ha0 HaS)|].
    split; [exact Hend|].
    intros k Hk. rewrite (rep_addr L v l offs k R) by lia. exact (rep_pair L Hwf v l offs i k R Hk).
  Qed.
End RepLayout.

Theorem layout_every_history : forall L cap budget fixed aid junk bid tbid h,
  wf_plist L = true -> 0 <= cap -> Forall (fun c => 0 <= c) fixed ->
  let v0 := fst (mkvec L cap budget fixed aid junk bid tbid) in
  let s0 := {| s_cap := cap; s_elems := [] |} in
  shist_valid L (fixed_counts L fixed) s0 h -> nt_hist_okx L s0 h ->
  let v := vrun L junk v0 h in
  let l := s_elems (srun s0 h) in
  forall i, (i < length l)%nat ->
    let t := nth i l [] in
    let a := eaddr L v (Z.of_nat i) in
    let fl := vfl L v (Z.of_nat i) in
    0 <= a /\ (SA L | a) /\
    Forall2 (fun p x => (pal p | x)) L (map fst fl) /\
    map snd fl = cnts_of t /\
    hd a (map fst fl) = a /\
    ordered_from a (extents L (cnts_of t) (map fst fl)) (elem_end L a t) /\
    elem_end L a t <= dend L v /\
    (forall k, (i < k < length l)%nat -> elem_end L a t <= eaddr L v (Z.of_nat k)).
Proof.
  intros L cap budget fixed aid junk bid tbid h Hwf Hcap Hfx. cbv zeta. intros Hv Hn i Hi.
  destruct (rep_every_history_nt L cap budget fixed aid junk bid tbid h Hwf Hcap Hfx Hv Hn) as [offs R].
  exact (rep_element_layout L Hwf _ _ offs R i Hi).
Qed.

Lemma rep_empty L v : wf_plist L = true -> Rep L v [] -> vsize L v = 0 /\ dend L v = 0.
Proof.
  intros Hwf [offs R]. pose proof (rep_len L v [] offs R) as Hl. destruct offs; [|discriminate].
  split; [exact (rep_vsize L v [] [] R)|].
  destruct (r_tight _ _ _ _ R) as [H|H]; [exact H|]. rewrite H.
  exact (first_align_0 L Hwf).
Qed.

(* however a vector was emptied - never filled, pop_back / erase / clear after ANY history -
   it has size 0 and data_end() = data_begin() (offset 0), and it represents the empty list:
   every further valid history is covered by the refinement theorem again *)
Theorem emptied_after_every_history : forall L cap budget fixed aid junk bid tbid h,
  wf_plist L = true -> 0 <= cap -> Forall (fun c => 0 <= c) fixed ->
  let v0 := fst (mkvec L cap budget fixed aid junk bid tbid) in
  let s0 := {| s_cap := cap; s_elems := [] |} in
  shist_valid L (fixed_counts L fixed) s0 h -> nt_hist_okx L s0 h ->
  s_elems (srun s0 h) = [] ->
  let v := vrun L junk v0 h in
  Rep L v [] /\ vsize L v = 0 /\ dend L v = 0.
Proof.
  intros L cap budget fixed aid junk bid tbid h Hwf Hcap Hfx. cbv zeta. intros Hv Hn He.
  pose proof (rep_every_history_nt L cap budget fixed aid junk bid tbid h Hwf Hcap Hfx Hv Hn) as R.
  rewrite He in R. split; [exact R|]. exact (rep_empty L _ Hwf R).
Qed.
