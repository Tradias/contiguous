(* MemLemmas.v — reading and writing byte memory (Mem.v): ranges, mread against
   mwrite / mmove / mcopy, the little-endian encoding. *)
From Coq Require Import ZArith Lia List Bool.
From Cntgs Require Import Mem.
Import ListNotations.
Local Open Scope Z_scope.

Lemma inr_true a n x : inr a n x = true <-> a <= x < a + n.
Proof. unfold inr. rewrite andb_true_iff, Z.leb_le, Z.ltb_lt. tauto. Qed.
Lemma inr_false a n x : inr a n x = false <-> ~ (a <= x < a + n).
Proof. rewrite <- inr_true. destruct (inr a n x); split; congruence. Qed.

Lemma inr_app a p q y : 0 <= p -> 0 <= q -> inr a (p + q) y = inr a p y || inr (a + p) q y.
Proof. intros Hp Hq. apply eq_true_iff_eq. rewrite orb_true_iff, !inr_true. lia. Qed.

Lemma inr_shift a d n y : inr (a + d) n y = inr a n (y - d).
Proof. apply eq_true_iff_eq. rewrite !inr_true. lia. Qed.

Lemma inr_empty a n y : n <= 0 -> inr a n y = false.
Proof. intros Hn. apply inr_false. lia. Qed.

Lemma mread_length m a n : length (mread m a n) = n.
Proof. unfold mread. now rewrite map_length, seq_length. Qed.

Lemma mread_ext m m' a n : (forall x, a <= x < a + Z.of_nat n -> m x = m' x) -> mread m a n = mread m' a n.
Proof. intros H. unfold mread. apply map_ext_in. intros i Hi. apply in_seq in Hi. apply H. lia. Qed.

Lemma mread_nth m a n i : (i < n)%nat -> nth i (mread m a n) 0 = m (a + Z.of_nat i).
Proof.
  intros Hi. unfold mread.
  rewrite (nth_indep _ 0 (m (a + Z.of_nat 0))) by (rewrite map_length, seq_length; lia).
  rewrite (map_nth (fun i => m (a + Z.of_nat i)) (seq 0 n) 0%nat i).
  rewrite seq_nth by lia. reflexivity.
Qed.

Lemma mread_S m a n : mread m a (S n) = m a :: mread m (a + 1) n.
Proof.
  unfold mread. cbn [seq map]. rewrite Z.add_0_r. f_equal.
  rewrite <- seq_shift, map_map. apply map_ext. intros i. f_equal. lia.
Qed.

Lemma mread_app m n1 : forall a n2,
  mread m a (n1 + n2) = mread m a n1 ++ mread m (a + Z.of_nat n1) n2.
Proof.
  induction n1 as [|n1 IH]; intros a n2.
  - cbn [Nat.add]. unfold mread at 2. cbn. now rewrite Z.add_0_r.
  - cbn [Nat.add]. rewrite !mread_S, IH. cbn [app].
    replace (a + Z.of_nat (S n1)) with (a + 1 + Z.of_nat n1) by lia. reflexivity.
Qed.

Lemma mread_shift m m' a n d : (forall x, a <= x < a + Z.of_nat n -> m' (x + d) = m x) ->
  mread m' (a + d) n = mread m a n.
Proof.
  intros H. unfold mread. apply map_ext_in. intros i Hi. apply in_seq in Hi.
  replace (a + d + Z.of_nat i) with (a + Z.of_nat i + d) by lia. apply H. lia.
Qed.

Lemma mread_mwrite_same m a bs : mread (mwrite m a bs) a (length bs) = bs.
Proof.
  apply nth_ext with (d := 0) (d' := 0); [apply mread_length|].
  intros i Hi. rewrite mread_length in Hi. rewrite mread_nth by lia. unfold mwrite.
  replace (inr a (Z.of_nat (length bs)) (a + Z.of_nat i)) with true
    by (symmetry; apply inr_true; lia).
  f_equal. lia.
Qed.

Lemma mwrite_out m a bs x : ~ (a <= x < a + Z.of_nat (length bs)) -> mwrite m a bs x = m x.
Proof. intros H. unfold mwrite. apply inr_false in H. now rewrite H. Qed.

Lemma mread_mwrite_disj m a bs a' n :
  a' + Z.of_nat n <= a \/ a + Z.of_nat (length bs) <= a' -> mread (mwrite m a bs) a' n = mread m a' n.
Proof. intros H. apply mread_ext. intros x Hx. apply mwrite_out. lia. Qed.

Lemma mmove_in m src dst n x : dst <= x < dst + n -> mmove m src dst n x = m (x - dst + src).
Proof. intros H. unfold mmove. apply inr_true in H. now rewrite H. Qed.
Lemma mmove_out m src dst n x : ~ (dst <= x < dst + n) -> mmove m src dst n x = m x.
Proof. intros H. unfold mmove. apply inr_false in H. now rewrite H. Qed.

Lemma mread_mmove_in m src dst len a n :
  dst <= a -> a + Z.of_nat n <= dst + len -> mread (mmove m src dst len) a n = mread m (a - dst + src) n.
Proof.
  intros H1 H2. unfold mread. apply map_ext_in. intros i Hi. apply in_seq in Hi.
  rewrite mmove_in by lia. f_equal. lia.
Qed.

Lemma mread_mmove_out m src dst len a n :
  a + Z.of_nat n <= dst \/ dst + len <= a -> mread (mmove m src dst len) a n = mread m a n.
Proof. intros H. apply mread_ext. intros x Hx. apply mmove_out. lia. Qed.

Lemma mcopy_in ms src m dst n x : dst <= x < dst + n -> mcopy ms src m dst n x = ms (x - dst + src).
Proof. intros H. unfold mcopy. apply inr_true in H. now rewrite H. Qed.
Lemma mcopy_out ms src m dst n x : ~ (dst <= x < dst + n) -> mcopy ms src m dst n x = m x.
Proof. intros H. unfold mcopy. apply inr_false in H. now rewrite H. Qed.

Lemma mread_mcopy_in ms src m dst len a n :
  dst <= a -> a + Z.of_nat n <= dst + len -> mread (mcopy ms src m dst len) a n = mread ms (a - dst + src) n.
Proof.
  intros H1 H2. unfold mread. apply map_ext_in. intros i Hi. apply in_seq in Hi.
  rewrite mcopy_in by lia. f_equal. lia.
Qed.

Lemma mwrite_mread m da ms sa n y : mwrite m da (mread ms sa n) y = mcopy ms sa m da (Z.of_nat n) y.
Proof.
  unfold mwrite, mcopy. rewrite mread_length. destruct (inr da (Z.of_nat n) y) eqn:E; [|reflexivity].
  apply inr_true in E. rewrite mread_nth by lia. f_equal. lia.
Qed.

Lemma mwrite_at m a bs y : mwrite m a bs y = if inr a (Z.of_nat (length bs)) y then nth (Z.to_nat (y - a)) bs 0 else m y.
Proof. reflexivity. Qed.

Lemma mwrite_mread_at ms sa m da n y :
  mwrite m da (mread ms sa n) y = if inr da (Z.of_nat n) y then ms (y - da + sa) else m y.
Proof. apply mwrite_mread. Qed.

Lemma enc_length n v : length (enc n v) = n.
Proof. revert v; induction n; simpl; auto. Qed.
Lemma dec_enc n : forall v, 0 <= v < 256 ^ Z.of_nat n -> dec (enc n v) = v.
Proof.
  induction n as [|n IH]; intros v Hv.
  - simpl in *. lia.
  - cbn [enc dec]. rewrite IH.
    + pose proof (Z.div_mod v 256). lia.
    + rewrite Nat2Z.inj_succ, Z.pow_succ_r in Hv by lia.
      split; [apply Z.div_pos; lia|]. apply Z.div_lt_upper_bound; lia.
Qed.

Lemma list_eqb_eq a : forall b, list_eqb a b = true <-> a = b.
Proof.
  induction a as [|x a IH]; intros [|y b]; cbn [list_eqb]; try (split; congruence).
  rewrite andb_true_iff, Z.eqb_eq, IH. split; [intros [-> ->]; reflexivity|intros H; inversion H; auto].
Qed.
