(* C06, "its storage is never overwritten by another object while it is alive", at the level of
   states: in every represented state the objects a vector holds (every object of every
   selected field of every element) occupy pairwise DISJOINT byte ranges inside
   [0, data_end()) of its block, in increasing address order - so the multiset `live` of
   LifeHist.v is a set, and what the balance theorems count are distinct pieces of storage. *)
From Coq Require Import ZArith Lia List.
From Cntgs Require Import Layout LayoutThm Vector Spec Rep ElemLemmas LifeThm LifeHist.
Import ListNotations.
Local Open Scope Z_scope.

(* objects (offset, size) in increasing address order, one behind the other, inside [lo, hi) *)
Fixpoint ochain (lo : Z) (objs : list (Z * Z)) (hi : Z) : Prop :=
  match objs with
  | [] => lo <= hi
  | (o, s) :: r => lo <= o /\ 0 < s /\ ochain (o + s) r hi
  end.

Lemma ochain_le : forall objs lo hi, ochain lo objs hi -> lo <= hi.
Proof.
  induction objs as [|[o s] r IH]; intros lo hi H; cbn [ochain] in H; [exact H|].
  destruct H as (A & B & C). specialize (IH _ _ C). lia.
Qed.

Lemma ochain_lo : forall objs lo lo' hi, lo' <= lo -> ochain lo objs hi -> ochain lo' objs hi.
Proof.
  intros [|[o s] r] lo lo' hi Hl H; cbn [ochain] in *; [lia|]. destruct H as (A & B & C). repeat split; auto; lia.
Qed.

Lemma ochain_hi : forall objs lo hi hi', hi <= hi' -> ochain lo objs hi -> ochain lo objs hi'.
Proof.
  induction objs as [|[o s] r IH]; intros lo hi hi' Hh H; cbn [ochain] in *; [lia|].
  destruct H as (A & B & C). repeat split; auto. eapply IH; eauto.
Qed.

Lemma ochain_app : forall a lo mid b hi, ochain lo a mid -> ochain mid b hi -> ochain lo (a ++ b) hi.
Proof.
  induction a as [|[o s] r IH]; intros lo mid b hi Ha Hb; cbn [ochain app] in *.
  - eapply ochain_lo; eauto.
  - destruct Ha as (A & B & C). repeat split; auto. eapply IH; eauto.
Qed.

Lemma field_chain x sz : 0 < sz -> forall c k,
  ochain (x + Z.of_nat k * sz) (map (fun j => (x + Z.of_nat j * sz, sz)) (seq k c)) (x + Z.of_nat (k + c) * sz).
Proof.
  intros Hs. induction c as [|c IH]; intros k; cbn [seq map ochain].
  - rewrite Nat.add_0_r. lia.
  - split; [lia|]. split; [exact Hs|].
    replace (x + Z.of_nat k * sz + sz) with (x + Z.of_nat (S k) * sz) by lia.
    replace (k + S c)%nat with (S k + c)%nat by lia. apply IH.
Qed.

Lemma obj_addrs_chain sel L : forall xs cnts lo hi, Forall wfp L -> Forall (fun c => 0 <= c) cnts ->
  ordered_from lo (extents L cnts xs) hi -> ochain lo (obj_addrs sel L xs cnts) hi.
Proof.
  induction L as [|p L IH]; intros xs cnts lo hi HF Hc Ho.
  - cbn [obj_addrs ochain]. destruct cnts; destruct xs; exact Ho.
  - destruct xs as [|x xs]; [destruct cnts; exact Ho|]. destruct cnts as [|c cnts]; [exact Ho|].
    cbn [extents ordered_from obj_addrs] in *. destruct Ho as (A & B & C).
    inversion HF as [|? ? [Hs _] HF']; subst. inversion Hc as [|? ? Hc0 Hc']; subst.
    specialize (IH xs cnts _ _ HF' Hc' C).
    destruct (sel p).
    + eapply ochain_app; [|exact IH].
      pose proof (field_chain x (psz p) Hs (Z.to_nat c) 0) as H. cbn [Nat.add] in H.
      rewrite Z2Nat.id in H by lia. change (Z.of_nat 0) with 0 in H. rewrite Z.mul_0_l, Z.add_0_r in H.
      eapply ochain_lo; [exact A|exact H].
    + cbn [app]. eapply ochain_lo; [|exact IH]. lia.
Qed.

Section LiveDisjoint.
  Variable L : list param.
  Hypothesis Hwf : wf_plist L = true.
  Let HF : Forall wfp L := wf_plist_Forall L Hwf.

  Lemma eobjs_chain sel a t fc : tuple_ok L fc 0 t -> 0 <= a -> (SA L | a) ->
    ochain a (eobjs sel L a t) (elem_end L a t).
  Proof.
    intros Ht Ha HaS. unfold eobjs, elem_end.
    apply obj_addrs_chain; [exact HF|apply cnts_of_nonneg|].
    exact (place_ordered L (cnts_of t) a Hwf (tuple_ok_cnt_ok L _ _ t Ht) Ha HaS).
  Qed.

  Lemma vobjs_chain sel fc : forall offs l lo hi, 0 <= lo -> Forall (tuple_ok L fc 0) l ->
    elems_ordered L lo offs l hi -> ochain lo (vobjs sel L offs l) hi.
  Proof.
    induction offs as [|a offs IH]; intros l lo hi Hlo Ht Ho; destruct l as [|t l]; cbn [elems_ordered vobjs] in *; try contradiction.
    - exact Ho.
    - destruct Ho as (A & B & C). inversion Ht as [|? ? Ht0 Ht']; subst.
      pose proof (eobjs_chain sel a t fc Ht0 ltac:(lia) B) as He.
      eapply ochain_app; [eapply ochain_lo; [exact A|exact He]|].
      apply IH; [|exact Ht'|exact C]. pose proof (ochain_le _ _ _ He). lia.
  Qed.

  Theorem held_objects_chain sel v l offs : RepO L v l offs ->
    ochain 0 (vobjs sel L offs l) (dend L v).
  Proof.
    intros R. eapply vobjs_chain; [lia|exact (r_tuples _ _ _ _ R)|exact (r_order _ _ _ _ R)].
  Qed.
End LiveDisjoint.

Lemma ochain_all_ge : forall objs lo hi, ochain lo objs hi -> Forall (fun b => lo <= fst b /\ fst b + snd b <= hi) objs.
Proof.
  induction objs as [|[o s] r IH]; intros lo hi H; cbn [ochain] in H; [constructor|].
  destruct H as (A & B & C). constructor.
  - cbn [fst snd]. pose proof (ochain_le _ _ _ C). lia.
  - eapply Forall_impl; [|exact (IH _ _ C)]. intros b [P Q]. split; lia.
Qed.

Theorem ochain_disjoint : forall objs lo hi, ochain lo objs hi ->
  ForallOrdPairs (fun a b => fst a + snd a <= fst b) objs.
Proof.
  induction objs as [|[o s] r IH]; intros lo hi H; cbn [ochain] in H; [constructor|].
  destruct H as (A & B & C). constructor; [|eapply IH; eauto].
  eapply Forall_impl; [|exact (ochain_all_ge _ _ _ C)]. intros b [P _]. cbn [fst snd]. exact P.
Qed.

Theorem ochain_nodup : forall objs lo hi, ochain lo objs hi -> NoDup objs.
Proof.
  induction objs as [|[o s] r IH]; intros lo hi H; cbn [ochain] in H; [constructor|].
  destruct H as (A & B & C). constructor; [|eapply IH; eauto].
  intros Hin. pose proof (ochain_all_ge _ _ _ C) as Hall. rewrite Forall_forall in Hall.
  specialize (Hall _ Hin). cbn [fst snd] in Hall. lia.
Qed.

Theorem live_nodup L : wf_plist L = true -> forall v l offs, RepO L v l offs -> NoDup (live L v l).
Proof.
  intros Hwf v l offs R. unfold live. rewrite <- (rep_cpos L v l offs R).
  pose proof (ochain_nodup _ _ _ (held_objects_chain L Hwf (ntc true) v l offs R)) as H.
  unfold tag. apply FinFun.Injective_map_NoDup; [|exact H].
  intros [o1 s1] [o2 s2] E. cbn [fst snd] in E. inversion E. reflexivity.
Qed.
