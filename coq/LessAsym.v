(* LessAsym.v — vector < as a function of the represented lists (C14, vector level).
   On the element-wise path it is the lexicographical loop under the element-level <
   (vec_less_content_elementwise); with FastLess, on either path it is that loop under an
   order on tuples (vec_less_lexb).  The element-level < is a product order over the runs, not
   a strict weak order (known finding), so transitivity of the vector order fails
   (C14_vector_less_transitive_refuted).  What the loop keeps with an element order that is
   only irreflexive and asymmetric, for EVERY parameter list and on both paths: a < b excludes
   b < a, a strict prefix is less, a == b excludes a < b. *)
From Coq Require Import ZArith List Bool Lia.
From Cntgs Require Import ListAux Layout LayoutThm Mem Vector Proxy Spec Rep Refine CompareThm CmpContent FastEq FastLess.
Import ListNotations.
Local Open Scope Z_scope.

Section LexWeak.
  Variable A : Type.
  Variable lt : A -> A -> bool.
  Hypothesis Ha : forall a b, lt a b = true -> lt b a = false.

  Lemma lexb_asym_weak : forall a b, lexb A lt a b = true -> lexb A lt b a = false.
  Proof. exact (lexb_asym_of A lt Ha). Qed.

  Lemma lexb_prefix : (forall a, lt a a = false) ->
    forall a c, c <> [] -> lexb A lt a (a ++ c) = true /\ lexb A lt (a ++ c) a = false.
  Proof.
    intros Hi. induction a as [|x a IH]; intros c Hc.
    - destruct c; [congruence|]. cbn [app lexb]. split; reflexivity.
    - cbn [app lexb]. rewrite Hi. apply IH. exact Hc.
  Qed.

  Lemma lexb_unordered d : forall a b, length a = length b ->
    (forall i, (i < length a)%nat -> lt (nth i a d) (nth i b d) = false /\ lt (nth i b d) (nth i a d) = false) ->
    lexb A lt a b = false.
  Proof.
    induction a as [|x a IH]; intros [|y b] Hlen H; try discriminate Hlen; cbn [lexb]; [reflexivity|].
    destruct (H O (Nat.lt_0_succ _)) as [E1 E2]. cbn [nth] in E1, E2. rewrite E1, E2.
    apply IH; [exact (eq_add_S _ _ Hlen)|]. intros i Hi. exact (H (S i) (proj1 (Nat.succ_lt_mono _ _) Hi)).
  Qed.
End LexWeak.

Lemma lexl_lexb {A} (lt : A -> A -> bool) : forall a b, lexl lt a b = lexb A lt a b.
Proof. induction a as [|x a IH]; intros [|y b]; cbn [lexl lexb]; rewrite ?IH; reflexivity. Qed.

Lemma lexb_map {A B} (f : A -> B) (lt : B -> B -> bool) : forall a b,
  lexb B lt (map f a) (map f b) = lexb A (fun x y => lt (f x) (f y)) a b.
Proof. induction a as [|x a IH]; intros [|y b]; cbn [map lexb]; rewrite ?IH; reflexivity. Qed.

(* one step of std::lexicographical_compare at position i *)
Lemma lexb_skipn_step {A} (lt : A -> A -> bool) d i l1 l2 :
  lexb A lt (skipn i l1) (skipn i l2) =
  if (length l1 <=? i)%nat || (length l2 <=? i)%nat then (length l1 <=? i)%nat && (i <? length l2)%nat
  else if lt (nth i l1 d) (nth i l2 d) then true else if lt (nth i l2 d) (nth i l1 d) then false
  else lexb A lt (skipn (S i) l1) (skipn (S i) l2).
Proof.
  destruct (Nat.leb_spec (length l1) i) as [H1|H1]; cbn [orb andb].
  - rewrite (skipn_all2 l1) by exact H1. destruct (Nat.ltb_spec i (length l2)) as [H2|H2].
    + rewrite (skipn_nth_cons d i l2 H2). reflexivity.
    + rewrite (skipn_all2 l2) by exact H2. reflexivity.
  - destruct (Nat.leb_spec (length l2) i) as [H2|H2].
    + rewrite (skipn_all2 l2) by exact H2. destruct (skipn i l1); reflexivity.
    + rewrite (skipn_nth_cons d i l1 H1), (skipn_nth_cons d i l2 H2). reflexivity.
Qed.

Section LessVec.
  Variable L : list param.
  Hypothesis Hwf : wf_plist L = true.
  Variables (v1 v2 : vec) (l1 l2 : list tuple) (o1 o2 : list Z).
  Hypothesis R1 : RepO L v1 l1 o1.
  Hypothesis R2 : RepO L v2 l2 o2.

  (* the library's loop is that step with the element-level < *)
  Lemma elems_less_from_content : forall fuel i, (length l1 <= i + fuel)%nat ->
    elems_less_from L v1 v2 (Z.of_nat i) fuel = lexb _ (tuple_less L) (skipn i l1) (skipn i l2).
  Proof.
    induction fuel as [|f IH]; intros i Hf; rewrite (lexb_skipn_step (tuple_less L) [] i l1 l2); cbn [elems_less_from];
      rewrite (rep_vsize L v1 l1 o1 R1), (rep_vsize L v2 l2 o2 R2), !Z_nat_leb, Z_nat_ltb.
    - rewrite (proj2 (Nat.leb_le (length l1) i)) by lia. reflexivity.
    - destruct (Nat.leb_spec (length l1) i) as [H1|H1]; [reflexivity|].
      destruct (Nat.leb_spec (length l2) i) as [H2|H2]; [reflexivity|]. cbn [orb].
      rewrite (ref_less_content L Hwf v1 v2 l1 l2 o1 o2 R1 R2 i i H1 H2), (ref_less_content L Hwf v2 v1 l2 l1 o2 o1 R2 R1 i i H2 H1).
      replace (Z.of_nat i + 1) with (Z.of_nat (S i)) by lia. rewrite (IH (S i)) by lia. reflexivity.
  Qed.

  Theorem vec_less_content_elementwise :
    (forallb lxm L && negb (has_varying L) && padfree L && list_eqb (v_fixed v1) (v_fixed v2)) = false ->
    vec_less L v1 v2 = lexb _ (tuple_less L) l1 l2.
  Proof.
    intros Hc. unfold vec_less. rewrite Hc. unfold elems_less.
    rewrite (rep_vsize L v1 l1 o1 R1), Nat2Z.id.
    exact (elems_less_from_content (length l1) 0 (Nat.le_refl _)).
  Qed.
End LessVec.

Lemma tuple_less_asym L : L <> [] -> forall t1 t2, tuple_less L t1 t2 = true -> tuple_less L t2 t1 = false.
Proof. intros HL. exact (prod_lt_asym L _ tup_objs tup_run HL). Qed.

Lemma tuple_less_irrefl L : L <> [] -> forall t, tuple_less L t t = false.
Proof. intros HL. exact (prod_lt_irrefl L _ tup_objs tup_run HL). Qed.

Lemma lexb_eqv_lists L : L <> [] -> forall l1 l2 : list tuple, length l1 = length l2 ->
  (forall i, (i < length l1)%nat -> tuple_eqv L (nth i l1 []) (nth i l2 [])) ->
  lexb _ (tuple_less L) l1 l2 = false.
Proof.
  intros HL l1 l2 Hlen H. apply (lexb_unordered _ _ [] l1 l2 Hlen). intros i Hi. split.
  - exact (eqv_tuples_not_less L HL _ _ (H i Hi)).
  - exact (eqv_tuples_not_less L HL _ _ (tuple_eqv_sym L _ _ (H i Hi))).
Qed.

(* the order on tuples under which vector < is the lexicographical loop: their bytes on the
   whole-buffer path, the element-level < otherwise *)
Definition vord (L : list param) (v1 v2 : vec) : tuple -> tuple -> bool :=
  if lt_fast L v1 v2 then fun a b => lex_lt (ebytes a) (ebytes b) else tuple_less L.

Lemma vord_sym L v1 v2 : vord L v1 v2 = vord L v2 v1.
Proof. unfold vord. rewrite lt_fast_sym. reflexivity. Qed.

Lemma vord_asym L v1 v2 : L <> [] -> forall a b, vord L v1 v2 a b = true -> vord L v1 v2 b a = false.
Proof. intros HL a b. unfold vord. destruct (lt_fast L v1 v2); [apply lex_lt_asym|apply tuple_less_asym, HL]. Qed.

Lemma vord_irrefl L v1 v2 : L <> [] -> forall a, vord L v1 v2 a a = false.
Proof. intros HL a. unfold vord. destruct (lt_fast L v1 v2); [apply lex_lt_irrefl|apply tuple_less_irrefl, HL]. Qed.

(* C14, vector level, both paths: vector < is std::lexicographical_compare over the two lists *)
Theorem vec_less_lexb L v1 l1 v2 l2 : wf_plist L = true -> Rep L v1 l1 -> Rep L v2 l2 ->
  vec_less L v1 v2 = lexb _ (vord L v1 v2) l1 l2.
Proof.
  intros Hwf R1 R2. unfold vord. destruct (lt_fast L v1 v2) eqn:Hc.
  - destruct (proj1 (lt_fast_iff L v1 v2) Hc) as (_ & Hnv & Hpf & _).
    rewrite (vec_less_content_fast L Hwf Hpf Hnv v1 l1 v2 l2 R1 R2 Hc), lexl_lexb. apply lexb_map.
  - destruct R1 as [o1 R1]. destruct R2 as [o2 R2].
    exact (vec_less_content_elementwise L Hwf v1 v2 l1 l2 o1 o2 R1 R2 Hc).
Qed.

Section VecLessLaws.
  Variable L : list param.
  Hypothesis Hwf : wf_plist L = true.
  Variables (v1 v2 : vec) (l1 l2 : list tuple).
  Hypothesis R1 : Rep L v1 l1.
  Hypothesis R2 : Rep L v2 l2.

  Let E1 : vec_less L v1 v2 = lexb _ (vord L v1 v2) l1 l2 := vec_less_lexb L v1 l1 v2 l2 Hwf R1 R2.
  Let E2 : vec_less L v2 v1 = lexb _ (vord L v1 v2) l2 l1.
  Proof. rewrite (vord_sym L v1 v2). exact (vec_less_lexb L v2 l2 v1 l1 Hwf R2 R1). Qed.
  Let HL : L <> [] := wf_plist_nonempty L Hwf.

  Theorem vec_less_asym : vec_less L v1 v2 = true -> vec_less L v2 v1 = false.
  Proof. rewrite E1, E2. apply lexb_asym_weak, vord_asym, HL. Qed.

  Theorem vec_less_strict_prefix : forall c, c <> [] -> l2 = l1 ++ c ->
    vec_less L v1 v2 = true /\ vec_less L v2 v1 = false.
  Proof. intros c Hc E. rewrite E1, E2, E. apply lexb_prefix; [apply vord_irrefl, HL|exact Hc]. Qed.

  Corollary vec_less_empty : l1 = [] -> vec_less L v1 v2 = negb (Z.of_nat (length l2) =? 0) /\ vec_less L v2 v1 = false.
  Proof. intros E. rewrite E1, E2, E. destruct l2; split; reflexivity. Qed.

  Lemma vec_equal_not_less_one : vec_equal L v1 v2 = true -> vec_less L v1 v2 = false.
  Proof.
    intros He. rewrite E1. destruct (eq_fast L v1 v2) eqn:Hc.
    - (* == compared the buffers: the lists are identical *)
      destruct (proj1 (eq_fast_iff L v1 v2) Hc) as (_ & Hpf & _).
      apply (vec_equal_content_fast L Hwf Hpf v1 l1 v2 l2 R1 R2 Hc) in He. subst l2.
      apply lexb_irrefl. intros a. apply vord_irrefl, HL.
    - (* == went element by element: so does < *)
      unfold vord. destruct (lt_fast L v1 v2) eqn:Hl; [rewrite (lt_fast_eq_fast L v1 v2 Hl) in Hc; discriminate|].
      destruct R1 as [o1 R1']. destruct R2 as [o2 R2'].
      destruct (proj1 (vec_equal_eqv_elementwise L Hwf v1 v2 l1 l2 o1 o2 R1' R2' Hc) He) as [Hlen Hq].
      exact (lexb_eqv_lists L HL l1 l2 Hlen Hq).
  Qed.
End VecLessLaws.

Theorem vec_equal_not_less L : wf_plist L = true -> L <> [] -> forall v1 l1 v2 l2, Rep L v1 l1 -> Rep L v2 l2 ->
  vec_equal L v1 v2 = true -> vec_less L v1 v2 = false /\ vec_less L v2 v1 = false.
Proof.
  intros Hwf HL v1 l1 v2 l2 R1 R2 He. split.
  - exact (vec_equal_not_less_one L Hwf v1 v2 l1 l2 R1 R2 He).
  - apply (vec_equal_not_less_one L Hwf v2 v1 l2 l1 R2 R1). rewrite vec_equal_sym. exact He.
Qed.

Theorem vec_less_not_equal : forall L, wf_plist L = true -> L <> [] ->
  forall v1 l1 v2 l2, Rep L v1 l1 -> Rep L v2 l2 ->
  vec_less L v1 v2 = true -> vec_equal L v1 v2 = false /\ vec_equal L v2 v1 = false.
Proof.
  intros L Hwf HL v1 l1 v2 l2 R1 R2 Hlt.
  assert (H : vec_equal L v1 v2 = false).
  { destruct (vec_equal L v1 v2) eqn:E; [|reflexivity].
    destruct (vec_equal_not_less L Hwf HL v1 l1 v2 l2 R1 R2 E) as [H _]. congruence. }
  split; [exact H|]. rewrite vec_equal_sym. exact H.
Qed.

(* the hypotheses are satisfiable: three represented states over (uint32, VaryingSize<uint32>)
   with different capacities, junk and histories - a strict prefix, and an ordered pair *)
Definition laV0 := vrun fxL (fun _ => 51) (fst (mkvec fxL 3 40 [] 0 (fun _ => 51) 5 6)) [SEmplace fxA].
Example less_laws_apply :
  wf_plist fxL = true /\ fxL <> [] /\
  Rep fxL laV0 [fxA] /\ Rep fxL fxV1 ([fxA] ++ [fxB]) /\ Rep fxL fxV3 [fxA; fxC] /\
  vec_less fxL laV0 fxV1 = true /\ vec_less fxL fxV1 laV0 = false /\
  vec_less fxL fxV3 fxV1 = true /\ vec_less fxL fxV1 fxV3 = false /\
  vec_equal fxL fxV1 fxV2 = true /\ vec_less fxL fxV1 fxV2 = false.
Proof.
  split; [reflexivity|]. split; [discriminate|].
  split; [|split; [exact (proj1 (proj2 (proj2 (proj2 fast_path_applies))))|split; [|vm_compute; repeat split; reflexivity]]].
  - apply (fx_rep 3 40 (fun _ => 51) 5%nat 6%nat [SEmplace fxA]); [lia|].
    cbn. repeat split; try lia; repeat constructor.
  - apply (fx_rep 4 64 (fun _ => 85) 3%nat 4%nat [SEmplace fxA; SEmplace fxC]); [lia|].
    cbn. repeat split; try lia; repeat constructor.
Qed.
