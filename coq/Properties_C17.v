(* C17 — allocation failure leaves everything valid and leak-free.
   Scope: only the allocator throws (value types' special members do not).
   (1) For EVERY parameter list, allocator kind and operand state, each allocating operation
       of a vector, and an element's construction from a reference and its two assignments,
       perform all their allocations before any other effect: nothing is constructed, destroyed,
       moved or released before the last allocation has succeeded.
   (2) World.step_f models a step whose allocation number k (counted from 0) fails as what (1)
       makes of it: no vector and no element changes (strong guarantee for every operation, in
       particular reserve and copy construction leave the source untouched) and every block
       obtained before the failure is handed back.
   That the real code behaves like this is decided by the correspondence check: exhaustive fault enumeration over every allocation of every
   allocating step of generated histories (DESIGN.md, C17). *)
From Coq Require Import ZArith List.
From Cntgs Require Import Layout Vector Elem World FaultThm.
Import ListNotations.
Local Open Scope Z_scope.

Theorem C17_construction_allocates_first : forall L cap budget fixed aid junk bid tbid,
  allocs_first (snd (mkvec L cap budget fixed aid junk bid tbid)).
Proof. exact mkvec_allocs_first. Qed.
Print Assumptions C17_construction_allocates_first.

Theorem C17_reserve_allocates_first : forall L v n b junk bid tbid,
  allocs_first (snd (reserve L v n b junk bid tbid)).
Proof. exact reserve_allocs_first. Qed.
Print Assumptions C17_reserve_allocates_first.

Theorem C17_copy_construction_allocates_first : forall K L src junk nb,
  allocs_first (snd (fst (copy_ctor K L src junk nb))).
Proof. exact copy_ctor_allocs_first. Qed.
Print Assumptions C17_copy_construction_allocates_first.

Theorem C17_copy_assignment_allocates_first : forall K L d src junk nb,
  allocs_first (snd (fst (copy_assign K L d src junk nb))).
Proof. exact copy_assign_allocs_first. Qed.
Print Assumptions C17_copy_assignment_allocates_first.

Theorem C17_move_assignment_allocates_first : forall K L d src junk nb,
  allocs_first (snd (fst (move_assign K L d src junk nb))).
Proof. exact move_assign_allocs_first. Qed.
Print Assumptions C17_move_assignment_allocates_first.

Theorem C17_element_construction_allocates_first : forall mv L ms fls sb aid junk nb,
  allocs_first (snd (elem_from_ref mv L ms fls sb aid junk nb)).
Proof. exact elem_from_ref_allocs_first. Qed.
Print Assumptions C17_element_construction_allocates_first.

Theorem C17_element_copy_assignment_allocates_first : forall pocca ae L d src junk nb,
  allocs_first (snd (fst (elem_copy_assign pocca ae L d src junk nb))).
Proof. exact elem_copy_assign_allocs_first. Qed.
Print Assumptions C17_element_copy_assignment_allocates_first.

Theorem C17_element_move_assignment_allocates_first : forall pocma ae L d src junk nb,
  allocs_first (snd (fst (elem_move_assign pocma ae L d src junk nb))).
Proof. exact elem_move_assign_allocs_first. Qed.
Print Assumptions C17_element_move_assignment_allocates_first.

(* the step in which an allocation fails: no vector, no element changes; the failure is
   consumed; exactly the k successful allocations used up block identities *)
Theorem C17_failed_step_changes_nothing : forall K L w o k,
  w_fail w = Some k ->
  let w1 := step K L w o in
  let new := rev (firstn (length (w_out w1) - length (w_out w)) (w_out w1)) in
  (k < length (filter is_alloc new))%nat ->
  w_vecs (step_f K L w o) = w_vecs w /\ w_elems (step_f K L w o) = w_elems w /\
  w_fail (step_f K L w o) = None /\ w_nb (step_f K L w o) = (w_nb w + k)%nat.
Proof. exact step_f_failure. Qed.
Print Assumptions C17_failed_step_changes_nothing.

(* step_f emits [flat_map dealloc_of (rev done)] for the allocations [done] that preceded the
   failing one: every one of them is returned *)
Theorem C17_failed_step_returns_its_blocks : forall done a u n b,
  In (OEv (EAlloc a u n b)) done -> In (OEv (EDealloc a u n b)) (flat_map dealloc_of (rev done)).
Proof. exact dealloc_of_done. Qed.
Print Assumptions C17_failed_step_returns_its_blocks.

(* non-vacuity: reserve on a VaryingSize vector with the SECOND allocation (the address
   table) failing: the vector is unchanged, the new block is returned, then a second reserve
   succeeds *)
Definition Lv : list param :=
  [ {| pk := Plain; psz := 8; pal := 8; pty := TUInt |}; {| pk := Varying; psz := 4; pal := 1; pty := TBlob |} ].
Definition Kpmr : akind := {| pocca := false; pocma := false; pocs := false; always_eq := false; soccc_bump := false |}.
Definition ops17 : list op :=
  [ OpMkVec 0 1 16 [] 1; OpEmplace 0 [[[1;0;0;0;0;0;0;0]]; [[7;7;7;7]]]; OpFailAt 1; OpReserve 0 4 64 ].
Definition w17 := run_from Kpmr Lv world0 ops17 O.
Example C17_reserve_table_allocation_fails :
  v_cap (getv w17 0) = 1 /\ v_bid (getv w17 0) = Some O /\ w_fail w17 = None /\ w_nb w17 = 3%nat /\
  In (OEv (EAlloc 1 8 14 2)) (w_out w17) /\ In (OEv (EDealloc 1 8 14 2)) (w_out w17) /\ In OThrow (w_out w17) /\
  v_cap (getv (run_from Kpmr Lv w17 [OpReserve 0 4 64] 4) 0) = 4.
Proof. vm_compute. repeat split; auto 20. Qed.
