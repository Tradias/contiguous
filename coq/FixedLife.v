(* C06 on lists WITHOUT a VaryingSize parameter, EVERY history: the objects constructed and
   destroyed by erase() / erase(first,last) with elements behind the erased ones, when the
   value types are not trivially relocatable (move_forward_nt: every following element is
   move-constructed into its new slot, then its source is destroyed).  Together with the step
   lemmas of LifeHist.v this gives the balance of constructions and destructions for every
   operation of such a list, and with it for every valid history (no restriction left). *)
From Coq Require Import ZArith Lia List Permutation.
From Cntgs Require Import ListAux Layout LayoutThm Mem Vector Spec Rep StableThm ElemLemmas Ordered Refine LifeThm
     NtRefine FixedErase LifeHist.
Import ListNotations.
Local Open Scope Z_scope.

Lemma move_objs_born p bid : forall n m src dst,
  keep born (snd (move_objs p bid m src dst n)) =
    (if ntc true p then tag bid (map (fun j => (dst + Z.of_nat j * psz p, psz p)) (seq 0 n)) else []) /\
  keep died (snd (move_objs p bid m src dst n)) = [].
Proof.
  induction n as [|n IH]; intros m src dst; [destruct (ntc true p); split; reflexivity|].
  cbn [move_objs]. rewrite objs_S.
  set (m1 := mwrite m dst (mread m src (Z.to_nat (psz p)))).
  specialize (IH (if ntc true p then mwrite m1 src (moved_bytes (psz p)) else m1) (src + psz p) (dst + psz p)).
  destruct (move_objs p bid _ (src + psz p) (dst + psz p) n) as [m3 evs]. cbn [snd] in *. destruct IH as [I1 I2].
  destruct (ntc true p); cbn [app keep born died]; rewrite I1; split; [reflexivity|exact I2|reflexivity|exact I2].
Qed.

Lemma move_fields_life bid L : forall pv fl m a,
  keep born (snd (fst (move_fields L pv fl bid m a))) =
    tag bid (obj_addrs (ntc true) L (fst (place_from L pv (map snd fl) a)) (map snd fl)) /\
  keep died (snd (fst (move_fields L pv fl bid m a))) = [].
Proof.
  induction L as [|p L IH]; intros pv fl m a; [split; reflexivity|].
  destruct pv as [|pt pv]; [split; reflexivity|]. destruct fl as [|[x c] fl]; [split; reflexivity|].
  cbn [map snd move_fields]. rewrite place_from_cons. cbn [fst obj_addrs].
  set (a' := align_if (pt <? pal p) (pal p) a).
  destruct (move_objs_born p bid (Z.to_nat c) m x a') as [O1 O2].
  destruct (move_objs p bid m x a' (Z.to_nat c)) as [m1 e1]. cbn [snd] in O1, O2.
  destruct (IH pv fl m1 (a' + c * psz p)) as [I1 I2].
  destruct (move_fields L pv fl bid m1 (a' + c * psz p)) as [[m2 e2] e]. cbn [fst snd] in *.
  rewrite !keep_app, O1, O2, I1, I2, tag_app. destruct (ntc true p); split; reflexivity.
Qed.

Lemma move_fields_born bid L : forall pv xs cnts m a,
  (length L <= length pv)%nat -> length xs = length L -> length cnts = length L ->
  keep born (snd (fst (move_fields L pv (combine xs cnts) bid m a))) =
    tag bid (obj_addrs (ntc true) L (fst (place_from L pv cnts a)) cnts) /\
  keep died (snd (fst (move_fields L pv (combine xs cnts) bid m a))) = [].
Proof.
  intros pv xs cnts m a _ Hx Hc. pose proof (move_fields_life bid L pv (combine xs cnts) m a) as H.
  rewrite map_snd_combine in H by lia. exact H.
Qed.

Section FixedLoopEvs.
  Variable L : list param.
  Hypothesis Hwf : wf_plist L = true.
  Hypothesis Hv : has_varying L = false.
  Variables (v : vec) (l : list tuple).
  Let S := v_stride v.
  Let fc := fixed_counts L (v_fixed v).
  Hypothesis Hst : stride_ok L fc S.
  Hypothesis Htup : Forall (tuple_ok L fc 0) l.
  Variables (to from : nat).
  Hypothesis Htf : (to < from)%nat.
  Hypothesis Hfl : (from <= length l)%nat.
  Let n := length l.
  Let bid := bidn (v_bid v).
  Let slot (k : nat) : Z := S * Z.of_nat k.

  Lemma step_evs j mj : linv L v l to from j mj -> (from + j < n)%nat ->
    let e := snd (move_one_nt L (set_mem v mj) (Z.of_nat (from + j)) (Z.of_nat (to + j))) in
    keep born e = tag bid (eobjs (ntc true) L (slot (to + j)) (nth (from + j) l [])) /\
    keep died e = tag bid (eobjs ntd L (slot (from + j)) (nth (from + j) l [])).
  Proof.
    intros (_ & _ & Ic) Hj. cbv zeta. unfold move_one_nt. rewrite (eaddr_fixed L Hv), Hv.
    cbn [v_fixed v_mem v_bid v_stride set_mem]. fold S.
    set (t := nth (from + j) l []).
    pose proof (tup L v l Htup (from + j)%nat Hj) as Ht.
    pose proof (Ic j (le_n _) Hj) as Hes. fold S t in Hes.
    rewrite (load_table L Hwf (v_fixed v) mj _ t Ht Hes).
    pose proof (cnts_length L t _ Ht) as Hc.
    pose proof (move_fields_born (bidn (v_bid v)) L (prevs L) _ (cnts_of t) mj (S * Z.of_nat (to + j))
                  ltac:(rewrite (prevs_length L); lia) (place_fst_length L _ (S * Z.of_nat (from + j)) Hc) Hc) as HB.
    destruct (move_fields L (prevs L) _ (bidn (v_bid v)) mj (S * Z.of_nat (to + j))) as [[m1 e1] e].
    pose proof (destruct_fields_died L (fst (place L (cnts_of t) (S * Z.of_nat (from + j)))) (cnts_of t) (bidn (v_bid v)) m1) as HD.
    destruct (destruct_fields L _ (bidn (v_bid v)) m1) as [m2 e2]. cbn [fst snd] in *.
    destruct HB as [B1 B2]. destruct HD as [D1 D2].
    rewrite !keep_app, B1, B2, D1, D2. cbn [app]. rewrite app_nil_r. split; reflexivity.
  Qed.

  Lemma loop_evs : forall cnt j mj, linv L v l to from j mj -> (from + j + cnt = n)%nat ->
    let e := snd (move_forward_nt L (set_mem v mj) (Z.of_nat (from + j)) (Z.of_nat (to + j)) cnt) in
    keep born e = tag bid (vobjs (ntc true) L (map slot (seq (to + j) cnt)) (firstn cnt (skipn (from + j) l))) /\
    keep died e = tag bid (vobjs ntd L (map slot (seq (from + j) cnt)) (firstn cnt (skipn (from + j) l))).
  Proof.
    induction cnt as [|cnt IH]; intros j mj Hinv Hc; cbv zeta.
    - cbn [move_forward_nt snd keep seq map vobjs]. split; reflexivity.
    - cbn [move_forward_nt].
      destruct (loop_step L Hwf Hv v l Hst Htup to from Htf Hfl j mj Hinv ltac:(fold n; lia)) as (m' & E & Hinv').
      pose proof (step_evs j mj Hinv ltac:(lia)) as HS.
      destruct (move_one_nt L (set_mem v mj) (Z.of_nat (from + j)) (Z.of_nat (to + j))) as [v1 e1].
      cbn [fst snd] in *. subst v1. destruct HS as [B1 D1].
      specialize (IH (Datatypes.S j) m' Hinv' ltac:(lia)).
      rewrite !Nat.add_succ_r in IH. rewrite !Z.add_1_r, <- !Nat2Z.inj_succ.
      destruct (move_forward_nt L (set_mem v m') _ _ cnt) as [v2 e2]. cbn [snd] in *.
      destruct IH as [B2 D2]. rewrite !keep_app, B1, B2, D1, D2.
      rewrite (skipn_nth_cons ([] : tuple) (from + j) l) by (fold n; lia).
      cbn [seq map firstn vobjs]. rewrite !tag_app. split; reflexivity.
  Qed.
End FixedLoopEvs.

Section FixedEraseLife.
  Variable L : list param.
  Hypothesis Hwf : wf_plist L = true.
  Hypothesis Hv : has_varying L = false.
  Hypothesis Hnt : all_triv L = false.
  Hypothesis Hsame : forall mv p, In p L -> ntc mv p = ntd p.

  Variables (v : vec) (l : list tuple) (offs : list Z).
  Hypothesis R : RepO L v l offs.
  Let S := v_stride v.
  Let n := length l.
  Let bid := bidn (v_bid v).
  Let slot (k : nat) : Z := S * Z.of_nat k.

  Lemma offs_slots : offs = map slot (seq 0 n).
  Proof. exact (proj1 (proj2 (fixed_loc L Hv v l offs R))). Qed.

  Lemma forward_evs to from m0 : (to < from)%nat -> (from <= n)%nat ->
    (forall k, (k < to \/ from <= k)%nat -> (k < n)%nat -> elem_at L m0 (slot k) (nth k l [])) ->
    let e := snd (move_forward L (set_mem v m0) (Z.of_nat from) (Z.of_nat to)) in
    keep born e = tag bid (vobjs (ntc true) L (map slot (seq to (n - from))) (skipn from l)) /\
    keep died e = tag bid (vobjs ntd L (skipn from offs) (skipn from l)).
  Proof.
    intros Htf Hfn Hm0. cbv zeta. destruct (fixed_loc L Hv v l offs R) as (Hcnt & Hoffs & Hst).
    unfold move_forward. rewrite Hnt.
    assert (Hvs : vsize L (set_mem v m0) = Z.of_nat n) by (unfold vsize; rewrite Hv; exact Hcnt).
    rewrite Hvs. replace (Z.to_nat (Z.of_nat n - Z.of_nat from)) with (n - from)%nat by lia.
    pose proof (linv_start L v l to from Htf Hfn m0 Hm0) as Hinv0.
    pose proof (loop_evs L Hwf Hv v l Hst (r_tuples _ _ _ _ R) to from Htf Hfn (n - from) 0 m0 Hinv0 ltac:(fold n; lia)) as HE.
    rewrite !Nat.add_0_r in HE.
    rewrite (firstn_all2 (n := (n - from)%nat)) in HE by (rewrite skipn_length; fold n; lia).
    destruct HE as [B D]. split; [exact B|].
    rewrite D, offs_slots, skipn_map, skipn_seq_. reflexivity.
  Qed.

  Lemma live_after v' to from : (to < from)%nat -> (from <= n)%nat ->
    Rep L v' (firstn to l ++ skipn from l) -> v_bid v' = v_bid v -> v_stride v' = v_stride v ->
    live L v' (firstn to l ++ skipn from l) =
      tag bid (vobjs (ntc true) L (firstn to offs) (firstn to l)) ++
      tag bid (vobjs (ntc true) L (map slot (seq to (n - from))) (skipn from l)).
  Proof.
    intros Htf Hfn [offs' R'] Hb Hs. unfold live. rewrite Hb, <- (rep_cpos L v' _ offs' R').
    destruct (fixed_loc L Hv v' _ offs' R') as (_ & Ho' & _). rewrite Hs in Ho'.
    assert (Hlen' : length (firstn to l ++ skipn from l) = (to + (n - from))%nat).
    { rewrite app_length, firstn_length, skipn_length. fold n. lia. }
    rewrite Hlen' in Ho'. rewrite Ho'. rewrite seq_app, map_app. cbn [Nat.add].
    rewrite vobjs_app by (rewrite map_length, seq_length, firstn_length; fold n; lia).
    rewrite tag_app. f_equal. f_equal. f_equal.
    rewrite offs_slots, firstn_map, firstn_seq_ by (fold n; lia). reflexivity.
  Qed.

  (* the balance of a removal of [to, from): what was live in [to, n) dies, what is live
     afterwards in [to, n - (from - to)) is born.  X is what the operation constructs, Y what it
     destroys: the removed range and the old places of the elements behind it *)
  Lemma removal_balance to from X Y v' : (to < from)%nat -> (from <= n)%nat ->
    Rep L v' (firstn to l ++ skipn from l) -> v_bid v' = v_bid v -> v_stride v' = v_stride v ->
    X = tag bid (vobjs (ntc true) L (map slot (seq to (n - from))) (skipn from l)) ->
    Permutation Y (tag bid (vobjs ntd L (firstn (from - to) (skipn to offs)) (firstn (from - to) (skipn to l))) ++
                   tag bid (vobjs ntd L (skipn from offs) (skipn from l))) ->
    Permutation (live L v l ++ X) (Y ++ live L v' (firstn to l ++ skipn from l)).
  Proof.
    intros Htf Hfn R' Hb Hs EX PY.
    rewrite (live_after v' to from Htf Hfn R' Hb Hs). rewrite <- EX.
    pose proof (rep_len L v l offs R) as Hlen.
    unfold live. rewrite <- (rep_cpos L v l offs R).
    rewrite (vobjs_split L (ntc true) to offs l Hlen), tag_app.
    rewrite (vobjs_split L (ntc true) (from - to) (skipn to offs) (skipn to l)) by (rewrite !skipn_length; lia).
    rewrite tag_app. rewrite !skipn_skipn_.
    replace (from - to + to)%nat with from by lia.
    rewrite !(vobjs_same L Hsame true).
    eapply Permutation_trans; [|apply Permutation_app_tail, Permutation_sym, PY].
    rewrite <- app_assoc. apply Permutation_app_swap_app.
  Qed.

  Theorem erase_range_balance_fixed_nt i j : (i < j)%nat -> (j < n)%nat ->
    let r := erase_range L v (Z.of_nat i) (Z.of_nat j) in
    Permutation (live L v l ++ keep born (snd r)) (keep died (snd r) ++ live L (fst r) (remove_range i j l)).
  Proof.
    intros Hij Hjn. cbv zeta.
    destruct (erase_range_rep_fixed_nt L Hwf Hv Hnt v l offs R i j ltac:(lia) (or_introl Hjn) ltac:(fold n; lia)) as (R' & _ & _ & Hb & Hs & _).
    (* the range is destroyed, then the elements behind it move forward *)
    assert (He : keep born (snd (erase_range L v (Z.of_nat i) (Z.of_nat j))) =
                   tag bid (vobjs (ntc true) L (map slot (seq i (n - j))) (skipn j l)) /\
                 keep died (snd (erase_range L v (Z.of_nat i) (Z.of_nat j))) =
                   tag bid (vobjs ntd L (firstn (j - i) (skipn i offs)) (firstn (j - i) (skipn i l))) ++
                   tag bid (vobjs ntd L (skipn j offs) (skipn j l))).
    { destruct (erase_range_fixed_nt L Hwf Hv v l offs R i j Hij Hjn) as (m0 & Hm0 & E). rewrite E. cbn [snd].
      destruct (destruct_range_evs L Hwf v l offs R (j - i) i (v_mem v) ltac:(fold n; lia) ltac:(auto)) as [D1 B1].
      rewrite set_mem_id in D1, B1. destruct (forward_evs i j m0 Hij ltac:(lia) Hm0) as [B2 D2].
      rewrite !keep_app, B1, D1, B2, D2. split; reflexivity. }
    destruct He as [EB ED]. unfold remove_range.
    apply (removal_balance i j _ _ _ Hij ltac:(lia) R' Hb Hs EB). rewrite ED. apply Permutation_refl.
  Qed.

  (* erase(position) with elements behind it is erase(position, position + 1) *)
  Theorem erase_balance_fixed_nt i : (i + 1 < n)%nat ->
    let r := erase L v (Z.of_nat i) in
    Permutation (live L v l ++ keep born (snd r)) (keep died (snd r) ++ live L (fst r) (remove_range i (Datatypes.S i) l)).
  Proof.
    intros Hi. cbv zeta. rewrite erase_as_erase_range by (rewrite (rep_vsize L v l offs R); fold n; lia).
    replace (Z.of_nat i + 1) with (Z.of_nat (Datatypes.S i)) by lia.
    apply erase_range_balance_fixed_nt; lia.
  Qed.
End FixedEraseLife.

Section FixedLifeHist.
  Variable L : list param.
  Hypothesis Hwf : wf_plist L = true.
  Hypothesis Hsame : forall mv p, In p L -> ntc mv p = ntd p.
  Hypothesis Hcft : cft L = true.

  (* lt_okx is to NtRefine.nt_okx what lt_ok is to nt_ok: the disjunct all_triv L = true is left
     out; lt_hist_okx and the two lemmas about it mirror nt_hist_okx *)
  Definition lt_okx (s : svec) (o : sop) : Prop := has_varying L = false \/ lt_ok s o.

  (* NtRefine.nt_okx: no VaryingSize parameter, or trivially relocatable, or nothing is removed in
     front of other elements *)
  Lemma lstep_balance_ntx junk v nb s o offs :
    RepO L v (s_elems s) offs -> v_cap v = s_cap s -> svalid L (fixed_counts L (v_fixed v)) s o -> nt_okx L s o ->
    (exists b0, v_bid v = Some b0 /\ (b0 < nb)%nat) -> balanced_step L junk v nb s o.
  Proof.
    intros R Hc Hv Hx Hb. unfold balanced_step.
    destruct (lstep_rep L Hwf junk v nb s o (ex_intro _ offs R) Hc Hv Hx Hb) as (R' & Hc' & Hf' & Hb').
    repeat (split; [assumption|]).
    pose proof (lstep_perm L Hwf Hsame Hcft junk v nb s o offs R Hv) as Hperm.
    destruct Hx as [Hnv|Hnt]; [|exact (Hperm Hnt)].
    destruct (all_triv L) eqn:Htr; [exact (Hperm (or_introl Htr))|].
    destruct o as [t| |i|i j| |n b]; try exact (Hperm (or_intror I)); cbn [svalid] in Hv.
    - destruct (Z.eq_dec (i + 1) (Z.of_nat (length (s_elems s)))) as [E|E]; [exact (Hperm (or_intror E))|].
      pose proof (erase_balance_fixed_nt L Hwf Hnv Htr Hsame v _ offs R (Z.to_nat i) ltac:(lia)) as HP.
      rewrite Z2Nat.id in HP by lia. exact HP.
    - destruct (Z.eq_dec j (Z.of_nat (length (s_elems s)))) as [E|E]; [exact (Hperm (or_intror E))|].
      destruct (Z.eq_dec i j) as [->|Nij].
      + (* the empty range: nothing happens at all *)
        cbn [lstep fst snd sstep s_elems]. rewrite erase_empty_range_identity. cbn [fst snd keep app].
        unfold remove_range. rewrite firstn_skipn, app_nil_r. apply Permutation_refl.
      + pose proof (erase_range_balance_fixed_nt L Hwf Hnv Htr Hsame v _ offs R (Z.to_nat i) (Z.to_nat j)
                      ltac:(lia) ltac:(lia)) as HP.
        rewrite !Z2Nat.id in HP by lia. exact HP.
  Qed.

  Theorem lstep_balance_x junk v nb s o offs :
    RepO L v (s_elems s) offs -> v_cap v = s_cap s -> svalid L (fixed_counts L (v_fixed v)) s o -> lt_okx s o ->
    (exists b0, v_bid v = Some b0 /\ (b0 < nb)%nat) ->
    let v' := fst (fst (lstep L junk (v, nb) o)) in
    let nb' := snd (fst (lstep L junk (v, nb) o)) in
    let evs := snd (lstep L junk (v, nb) o) in
    Rep L v' (s_elems (sstep s o)) /\ v_cap v' = s_cap (sstep s o) /\ v_fixed v' = v_fixed v /\
    (exists b0, v_bid v' = Some b0 /\ (b0 < nb')%nat) /\
    Permutation (live L v (s_elems s) ++ keep born evs) (keep died evs ++ live L v' (s_elems (sstep s o))).
  Proof.
    intros R Hc Hv Hx. apply (lstep_balance_ntx junk v nb s o offs R Hc Hv).
    destruct Hx as [Hnv|Hlt]; [left; exact Hnv|right; right; exact Hlt].
  Qed.

  Fixpoint lt_hist_okx (s : svec) (h : list sop) : Prop :=
    match h with
    | [] => True
    | o :: h' => lt_okx s o /\ lt_hist_okx (sstep s o) h'
    end.

  Lemma lt_hist_okx_fixed h : has_varying L = false -> forall s, lt_hist_okx s h.
  Proof.
    intros Hnv. induction h as [|o h IH]; intros s; cbn [lt_hist_okx]; [exact I|].
    split; [left; exact Hnv|apply IH].
  Qed.

  Lemma lt_hist_ok_okx h : forall s, lt_hist_ok s h -> lt_hist_okx s h.
  Proof.
    induction h as [|o h IH]; intros s H; cbn [lt_hist_ok lt_hist_okx] in *; [exact I|].
    destruct H as [H1 H2]. split; [right; exact H1|apply IH; exact H2].
  Qed.

  Theorem lrun_balance_x junk h : forall v nb s,
    Rep L v (s_elems s) -> v_cap v = s_cap s -> shist_valid L (fixed_counts L (v_fixed v)) s h ->
    lt_hist_okx s h -> (exists b0, v_bid v = Some b0 /\ (b0 < nb)%nat) ->
    let r := lrun L junk (v, nb) h in
    Rep L (fst (fst r)) (s_elems (srun s h)) /\ v_bid (fst (fst r)) <> None /\
    Permutation (live L v (s_elems s) ++ keep born (snd r)) (keep died (snd r) ++ live L (fst (fst r)) (s_elems (srun s h))).
  Proof. exact (lrun_balance_gen L lt_okx lt_hist_okx junk (fun _ _ _ Hh => Hh) (lstep_balance_x junk) h). Qed.
End FixedLifeHist.

(* C06 along a whole life on a list WITHOUT a VaryingSize parameter: construction, ANY valid
   history - erase() in the middle included, whatever the value types are - then destruction:
   the constructions and the destructions, as multisets of (block, offset, size), coincide. *)
Theorem whole_life_objects_balanced_x : forall L cap budget fixed aid junk bid tbid h,
  wf_plist L = true -> (forall mv p, In p L -> ntc mv p = ntd p) -> cft L = true ->
  0 <= cap -> Forall (fun c => 0 <= c) fixed ->
  let v0 := fst (mkvec L cap budget fixed aid junk bid tbid) in
  let s0 := {| s_cap := cap; s_elems := [] |} in
  shist_valid L (fixed_counts L fixed) s0 h -> lt_hist_okx L s0 h ->
  let r := lrun L junk (v0, S (Nat.max bid tbid)) h in
  let evs := snd r ++ destroy L (fst (fst r)) in
  Permutation (keep born evs) (keep died evs).
Proof.
  intros L cap budget fixed aid junk bid tbid h Hwf Hsame Hcft Hcap Hfx. cbv zeta. intros Hv Hlt.
  destruct (mkvec_start L cap budget fixed aid junk bid tbid Hwf Hcap Hfx) as (R0 & Hc0 & Hf0 & Hb0).
  apply (run_then_destroy L junk _ _ cap h Hwf Hsame).
  apply (lrun_balance_x L Hwf Hsame Hcft junk h); [exact R0|exact Hc0|rewrite Hf0; exact Hv|exact Hlt|exact Hb0].
Qed.

Corollary whole_life_fixed_list_every_history : forall L cap budget fixed aid junk bid tbid h,
  wf_plist L = true -> has_varying L = false -> (forall mv p, In p L -> ntc mv p = ntd p) -> cft L = true ->
  0 <= cap -> Forall (fun c => 0 <= c) fixed ->
  let v0 := fst (mkvec L cap budget fixed aid junk bid tbid) in
  let s0 := {| s_cap := cap; s_elems := [] |} in
  shist_valid L (fixed_counts L fixed) s0 h ->
  let r := lrun L junk (v0, S (Nat.max bid tbid)) h in
  let evs := snd r ++ destroy L (fst (fst r)) in
  Permutation (keep born evs) (keep died evs).
Proof.
  intros L cap budget fixed aid junk bid tbid h Hwf Hnv Hsame Hcft Hcap Hfx. cbv zeta. intros Hv.
  apply whole_life_objects_balanced_x; auto. apply lt_hist_okx_fixed. exact Hnv.
Qed.
