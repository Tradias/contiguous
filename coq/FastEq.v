(* FastEq.v — the whole-buffer path of vector == (vector.hpp equal(): all value types
   memcmp-able, IS_PADDING_FREE, equal fixed sizes).  Under padfree the bytes
   [data_begin(), data_end()) of a represented state are the concatenation of the bytes of its
   elements' fields - tight packing (Rep.r_tight) leaves no gap - and that byte string determines
   the list of tuples.  With the element-wise path (CmpContent): vector == on both paths (C13). *)
From Coq Require Import ZArith Lia List Bool.
From Cntgs Require Import Layout LayoutThm Mem MemLemmas Vector Proxy Spec Rep ElemLemmas CompareThm Refine
  CmpContent TightThm.
Import ListNotations.
Local Open Scope Z_scope.

Definition ebytes (t : tuple) : list Z := concat (map (@concat Z) t).

Lemma concat_objs_length (s : nat) (f : list (list Z)) : Forall (fun o => length o = s) f ->
  length (concat f) = (length f * s)%nat.
Proof. induction 1 as [|o f Ho _ IH]; cbn [concat length]; [reflexivity|]. rewrite app_length, IH, Ho. lia. Qed.

(* no padding between the fields: the known alignment is never smaller than required (the middle
   conjunct of Proxy.padfree, there with pv = prevs L) *)
Definition fields_packed (L : list param) (pv : list Z) : bool :=
  forallb (fun pp => negb (snd pp <? pal (fst pp))) (combine L pv).

Lemma elem_from_packed : forall L pv fc prevc m a t,
  Forall wfp L -> fields_packed L pv = true -> (length L <= length pv)%nat ->
  tuple_ok L fc prevc t -> elem_from L pv m a t ->
  mread m a (length (ebytes t)) = ebytes t /\
  snd (place_from L pv (cnts_of t) a) = a + Z.of_nat (length (ebytes t)).
Proof.
  induction L as [|p L IH]; intros pv fc prevc m a t HF Hp Hl Ht He.
  - destruct t; [|destruct fc; contradiction]. cbn. split; [reflexivity|lia].
  - destruct fc as [|c fc]; [contradiction|]. destruct t as [|f t]; [contradiction|].
    destruct pv as [|pt pv]; [cbn in Hl; lia|].
    destruct Ht as (Ho & Hc & Ht). apply Forall_cons_iff in HF. destruct HF as [[Hs _] HF].
    unfold fields_packed in Hp. cbn [combine forallb fst snd] in Hp. apply andb_true_iff in Hp. destruct Hp as [Hp1 Hp].
    apply negb_true_iff in Hp1.
    (* field 0 starts at a and ends where its bytes end *)
    cbn [elem_from] in He. cbn [cnts_of map]. fold (cnts_of t). rewrite place_from_cons. cbn [snd].
    unfold align_if in He |- *. rewrite Hp1 in He |- *. destruct He as [Hr He].
    replace (Z.of_nat (length f) * psz p) with (Z.of_nat (length (concat f))) in He |- *
      by (rewrite (concat_objs_length _ _ Ho), Nat2Z.inj_mul, Z2Nat.id by lia; reflexivity).
    destruct (IH pv fc _ m _ t HF Hp ltac:(cbn in Hl; lia) Ht He) as [IH1 IH2].
    unfold ebytes in IH1, IH2 |- *. cbn [map concat]. rewrite app_length, mread_app, Hr, IH1, IH2. split; [reflexivity|lia].
Qed.

(* the bytes of a tuple determine the tuple (the object counts are fixed by the list, the
   fixed sizes and - for a VaryingSize field - the value of the field in front of it) *)
Lemma ebytes_inj_prefix : forall L fc prevc t1 t2 r1 r2,
  Forall wfp L -> tuple_ok L fc prevc t1 -> tuple_ok L fc prevc t2 ->
  ebytes t1 ++ r1 = ebytes t2 ++ r2 -> t1 = t2 /\ r1 = r2.
Proof.
  induction L as [|p L IH]; intros fc prevc t1 t2 r1 r2 HF H1 H2 He.
  - destruct t1; [|destruct fc; contradiction]. destruct t2; [|destruct fc; contradiction]. cbn in He. auto.
  - destruct fc as [|c fc]; [contradiction|].
    destruct t1 as [|f1 t1]; [contradiction|]. destruct t2 as [|f2 t2]; [contradiction|].
    destruct H1 as (Ho1 & Hc1 & H1). destruct H2 as (Ho2 & Hc2 & H2).
    apply Forall_cons_iff in HF. destruct HF as [[Hs _] HF].
    unfold ebytes in He. cbn [map concat] in He. rewrite <- !app_assoc in He.
    assert (Hlf : length f1 = length f2) by lia.
    apply app_eq_len in He.
    + destruct He as [Ef He].
      apply (concat_chunks_inj (Z.to_nat (psz p))) in Ef; auto; [|lia]. subst f2.
      destruct (IH fc _ t1 t2 r1 r2 HF H1 H2 He) as [-> ->]. auto.
    + rewrite (concat_objs_length _ _ Ho1), (concat_objs_length _ _ Ho2). lia.
Qed.

Lemma ebytes_list_inj L fc : Forall wfp L -> forall l1 l2,
  Forall (tuple_ok L fc 0) l1 -> Forall (tuple_ok L fc 0) l2 -> length l1 = length l2 ->
  concat (map ebytes l1) = concat (map ebytes l2) -> l1 = l2.
Proof.
  intros HF. induction l1 as [|t1 l1 IH]; intros [|t2 l2] H1 H2 Hl He; try discriminate; [reflexivity|].
  inversion H1; subst. inversion H2; subst. cbn [map concat] in He.
  destruct (ebytes_inj_prefix L fc 0 t1 t2 _ _ HF ltac:(assumption) ltac:(assumption) He) as [-> He'].
  f_equal. apply IH; auto.
Qed.

Section Fast.
  Variable L : list param.
  Hypothesis Hwf : wf_plist L = true.
  Hypothesis Hpf : padfree L = true.

  Let HF : Forall wfp L := wf_plist_Forall L Hwf.

  Lemma pf_first_align x : first_align L x = x.
  Proof.
    unfold padfree in Hpf. rewrite !andb_true_iff, negb_true_iff in Hpf. destruct Hpf as [[H _] _].
    unfold first_align, align_if. rewrite H. reflexivity.
  Qed.

  Lemma pf_fields : fields_packed L (prevs L) = true.
  Proof. unfold padfree in Hpf. rewrite !andb_true_iff in Hpf. exact (proj2 (proj1 Hpf)). Qed.

  Lemma elem_packed fc m a t : tuple_ok L fc 0 t -> elem_at L m a t ->
    mread m a (length (ebytes t)) = ebytes t /\ elem_end L a t = a + Z.of_nat (length (ebytes t)).
  Proof.
    intros Ht He. unfold elem_end, place.
    apply (elem_from_packed L (prevs L) fc 0 m a t HF pf_fields (prevs_length_le L) Ht He).
  Qed.

  Lemma chain_bytes fc m : forall offs l lo hi,
    elems_tight L lo offs l hi -> Forall (tuple_ok L fc 0) l ->
    Forall2 (fun a t => elem_at L m a t) offs l -> 0 <= lo ->
    hi = lo + Z.of_nat (length (concat (map ebytes l))) /\
    mread m lo (length (concat (map ebytes l))) = concat (map ebytes l).
  Proof.
    induction offs as [|a offs IH]; intros [|t l] lo hi HT Ht He Hlo; cbn [elems_tight] in HT; try contradiction.
    - cbn. rewrite pf_first_align in HT. split; [lia|reflexivity].
    - destruct HT as [Ea HT]. rewrite pf_first_align in Ea. subst a.
      inversion Ht; subst. inversion He; subst.
      destruct (elem_packed fc m lo t ltac:(assumption) ltac:(assumption)) as [Hb Hend].
      rewrite Hend in HT.
      destruct (IH l _ hi HT ltac:(assumption) ltac:(assumption) ltac:(lia)) as [Hhi Hr].
      cbn [map concat]. rewrite app_length. split; [lia|].
      rewrite mread_app, Hb, Hr. reflexivity.
  Qed.

  Lemma rep_bytes v l : Rep L v l ->
    dend L v = Z.of_nat (length (concat (map ebytes l))) /\
    mread (v_mem v) 0 (length (concat (map ebytes l))) = concat (map ebytes l).
  Proof.
    intros [offs R].
    exact (chain_bytes _ (v_mem v) offs l 0 (dend L v) (r_tight _ _ _ _ R) (r_tuples _ _ _ _ R) (r_elems _ _ _ _ R) (Z.le_refl 0)).
  Qed.

  Lemma rep_buffer v l : Rep L v l -> buffer L v = concat (map ebytes l).
  Proof. intros R. unfold buffer. rewrite (proj1 (rep_bytes v l R)), Nat2Z.id. exact (proj2 (rep_bytes v l R)). Qed.

  Theorem vec_equal_content_fast v1 l1 v2 l2 : Rep L v1 l1 -> Rep L v2 l2 ->
    (forallb eqm L && padfree L && list_eqb (v_fixed v1) (v_fixed v2)) = true ->
    (vec_equal L v1 v2 = true <-> l1 = l2).
  Proof.
    intros R1 R2 Hc. unfold vec_equal. rewrite Hc. apply eq_fast_iff in Hc. destruct Hc as (_ & _ & Hfx).
    rewrite (rep_buffer v1 l1 R1), (rep_buffer v2 l2 R2).
    destruct R1 as [o1 R1]. destruct R2 as [o2 R2].
    rewrite (rep_vsize L v1 l1 o1 R1), (rep_vsize L v2 l2 o2 R2).
    destruct (Z.eqb_spec (Z.of_nat (length l1)) (Z.of_nat (length l2))) as [Hl|Hl]; cbn [negb].
    - destruct (Z.eqb_spec (Z.of_nat (length l1)) 0) as [H0|H0].
      + split; [intros _|reflexivity]. destruct l1; [|cbn in H0; lia]. destruct l2; [reflexivity|cbn in Hl; lia].
      + rewrite list_eqb_eq. split; [|intros ->; reflexivity].
        intros He. apply (ebytes_list_inj L (fixed_counts L (v_fixed v1)) HF); [| |lia|exact He].
        * exact (r_tuples _ _ _ _ R1).
        * rewrite Hfx. exact (r_tuples _ _ _ _ R2).
    - split; [discriminate|]. intros ->. lia.
  Qed.
End Fast.

Lemma eqm_all_noflt L : forallb eqm L = true -> noflt L.
Proof.
  intros H j Hj. rewrite forallb_forall in H. apply eqm_not_flt. apply H. apply nth_In. exact Hj.
Qed.

(* C13, vector level, both paths and every list; on the whole-buffer path no field is a float, so
   field-wise equal tuples are identical *)
Theorem vec_equal_eqv L v1 l1 v2 l2 : wf_plist L = true -> Rep L v1 l1 -> Rep L v2 l2 ->
  (vec_equal L v1 v2 = true <->
   length l1 = length l2 /\ forall i, (i < length l1)%nat -> tuple_eqv L (nth i l1 []) (nth i l2 [])).
Proof.
  intros Hwf R1 R2. destruct (eq_fast L v1 v2) eqn:Hc.
  - destruct (proj1 (eq_fast_iff L v1 v2) Hc) as (Hq & Hpf & _).
    rewrite (vec_equal_content_fast L Hwf Hpf v1 l1 v2 l2 R1 R2 Hc). symmetry.
    destruct R1 as [o1 R1]. destruct R2 as [o2 R2].
    exact (eqv_lists_eq L (eqm_all_noflt L Hq) _ _ l1 l2 (r_tuples _ _ _ _ R1) (r_tuples _ _ _ _ R2)).
  - destruct R1 as [o1 R1]. destruct R2 as [o2 R2].
    exact (vec_equal_eqv_elementwise L Hwf v1 v2 l1 l2 o1 o2 R1 R2 Hc).
Qed.

Theorem vec_equal_content L v1 l1 v2 l2 : wf_plist L = true -> noflt L ->
  Rep L v1 l1 -> Rep L v2 l2 -> (vec_equal L v1 v2 = true <-> l1 = l2).
Proof.
  intros Hwf Hnf R1 R2. rewrite (vec_equal_eqv L v1 l1 v2 l2 Hwf R1 R2).
  destruct R1 as [o1 R1]. destruct R2 as [o2 R2].
  exact (eqv_lists_eq L Hnf _ _ l1 l2 (r_tuples _ _ _ _ R1) (r_tuples _ _ _ _ R2)).
Qed.

(* the hypotheses are satisfiable on the fast path: (uint32, VaryingSize<uint32>) is padding-free
   and memcmp-able; two vectors with different capacities and junk, filled by different histories
   with the same two elements, are represented states and compare equal; with a different payload
   they compare unequal *)
Definition fxL : list param :=
  [ {| pk := Plain; psz := 4; pal := 4; pty := TUInt |};
    {| pk := Varying; psz := 4; pal := 4; pty := TUInt |} ].
Definition fxA : tuple := [[[1; 0; 0; 0]]; [[7; 0; 0; 0]]].
Definition fxB : tuple := [[[2; 0; 0; 0]]; [[8; 0; 0; 0]; [9; 0; 0; 0]]].
Definition fxC : tuple := [[[1; 0; 0; 0]]; [[6; 0; 0; 0]]].
Definition fxV1 := vrun fxL (fun _ => 170) (fst (mkvec fxL 2 12 [] 0 (fun _ => 170) 1 2)) [SEmplace fxA; SEmplace fxB].
Definition fxV2 := vrun fxL (fun _ => 85) (fst (mkvec fxL 4 64 [] 0 (fun _ => 85) 3 4))
                     [SEmplace fxC; SEmplace fxA; SEmplace fxB; SErase 0].
Definition fxV3 := vrun fxL (fun _ => 85) (fst (mkvec fxL 4 64 [] 0 (fun _ => 85) 3 4)) [SEmplace fxA; SEmplace fxC].

Lemma fx_rep cap budget fill a b h : 0 <= cap ->
  shist_valid fxL (fixed_counts fxL []) {| s_cap := cap; s_elems := [] |} h ->
  Rep fxL (vrun fxL fill (fst (mkvec fxL cap budget [] 0 fill a b)) h)
      (s_elems (srun {| s_cap := cap; s_elems := [] |} h)).
Proof. intros Hc. apply (rep_every_history fxL cap budget [] 0 fill a b h eq_refl eq_refl Hc). constructor. Qed.

Example fast_path_applies :
  wf_plist fxL = true /\ padfree fxL = true /\ forallb eqm fxL = true /\
  Rep fxL fxV1 [fxA; fxB] /\ Rep fxL fxV2 [fxA; fxB] /\
  vec_equal fxL fxV1 fxV2 = true /\ vec_equal fxL fxV1 fxV3 = false.
Proof.
  split; [reflexivity|]. split; [reflexivity|]. split; [reflexivity|].
  split; [|split; [|split; vm_compute; reflexivity]].
  - apply (fx_rep 2 12 (fun _ => 170) 1%nat 2%nat [SEmplace fxA; SEmplace fxB]); [lia|].
    cbn. repeat split; try lia; repeat constructor.
  - apply (fx_rep 4 64 (fun _ => 85) 3%nat 4%nat [SEmplace fxC; SEmplace fxA; SEmplace fxB; SErase 0]); [lia|].
    cbn. repeat split; try lia; repeat constructor.
Qed.
