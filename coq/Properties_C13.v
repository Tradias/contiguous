(* C13 — equality means equal logical content, nothing else.
   For EVERY well-formed parameter list: two elements stored anywhere - in any memories, at any
   aligned positions, whatever junk surrounds them, with the same or different fixed sizes -
   compare equal with the library's operator== (memcmp-able runs byte-wise, the other fields
   object-wise) exactly when they hold field-wise equal tuples under the value types' own ==
   (C13_reference_equality_is_field_equivalence); without floating-point fields (noflt L) that
   is identity of the tuples (C13_reference_equality_is_content_equality).  The proof rests on the
   structure of the run table: a compared run contains no alignment padding and at most one
   span, at its end, so its bytes are the concatenated bytes of its fields.  Likewise for
   references into represented vectors and for vector == on its element-wise path and on its
   whole-buffer path (tight packing is part of the representation invariant, so the buffers are
   the concatenation of the elements' bytes, which determine the tuples).  For arbitrary memory
   contents == is reflexive and symmetric and != its negation.  Vectors of zero-byte elements of
   different sizes must not compare equal on the whole-buffer path: DESIGN.md, section 7, F28. *)
From Coq Require Import ZArith List Bool.
From Cntgs Require Import Layout Mem Vector Proxy World Spec Rep CompareThm ElemThm CmpContent FastEq.
Import ListNotations.
Local Open Scope Z_scope.

Theorem C13_reference_equality_is_content_equality : forall L, wf_plist L = true ->
  forall t1 t2 fc1 fc2, tuple_ok L fc1 0 t1 -> tuple_ok L fc2 0 t2 ->
  forall m1 m2 a1 a2, elem_at L m1 a1 t1 -> elem_at L m2 a2 t2 -> noflt L ->
  (elem_equal L m1 (ref_fl L t1 a1) m2 (ref_fl L t2 a2) = true <-> t1 = t2).
Proof. exact elem_equal_content. Qed.
Print Assumptions C13_reference_equality_is_content_equality.

Theorem C13_vector_elements_equal_iff_same_tuple : forall L, wf_plist L = true -> noflt L ->
  forall v1 l1 v2 l2 i j, Rep L v1 l1 -> Rep L v2 l2 -> (i < length l1)%nat -> (j < length l2)%nat ->
  (ref_equal L v1 (Z.of_nat i) v2 (Z.of_nat j) = true <-> nth i l1 [] = nth j l2 []).
Proof. exact ref_equal_content. Qed.
Print Assumptions C13_vector_elements_equal_iff_same_tuple.

Theorem C13_vector_equality_elementwise_is_content_equality : forall L, wf_plist L = true -> noflt L ->
  forall v1 l1 v2 l2, Rep L v1 l1 -> Rep L v2 l2 ->
  (forallb eqm L && padfree L && list_eqb (v_fixed v1) (v_fixed v2)) = false ->
  (vec_equal L v1 v2 = true <-> l1 = l2).
Proof. intros L Hwf Hnf v1 l1 v2 l2 R1 R2 _. exact (vec_equal_content L v1 l1 v2 l2 Hwf Hnf R1 R2). Qed.
Print Assumptions C13_vector_equality_elementwise_is_content_equality.

(* ... and on the whole-buffer path (all value types memcmp-able, IS_PADDING_FREE, equal
   fixed sizes): the bytes [data_begin(), data_end()) are exactly the bytes of the stored
   tuples, without any gap (tight packing is part of the representation invariant), and they
   determine the tuples *)
Theorem C13_vector_equality_fast_path_is_content_equality : forall L, wf_plist L = true -> padfree L = true ->
  forall v1 l1 v2 l2, Rep L v1 l1 -> Rep L v2 l2 ->
  (forallb eqm L && padfree L && list_eqb (v_fixed v1) (v_fixed v2)) = true ->
  (vec_equal L v1 v2 = true <-> l1 = l2).
Proof. exact vec_equal_content_fast. Qed.
Print Assumptions C13_vector_equality_fast_path_is_content_equality.

(* BOTH paths: in every pair of represented states - hence after any two valid histories
   (C01), whatever the capacities, junk, allocators or histories - vector == is equality of
   the two lists of tuples, nothing else *)
Theorem C13_vector_equality_is_content_equality : forall L v1 l1 v2 l2, wf_plist L = true -> noflt L ->
  Rep L v1 l1 -> Rep L v2 l2 -> (vec_equal L v1 v2 = true <-> l1 = l2).
Proof. exact vec_equal_content. Qed.
Print Assumptions C13_vector_equality_is_content_equality.

Theorem C13_vector_equality_reflexive : forall L v, vec_equal L v v = true.
Proof. exact vec_equal_refl. Qed.
Print Assumptions C13_vector_equality_reflexive.

Theorem C13_vector_equality_symmetric : forall L v1 v2, vec_equal L v1 v2 = vec_equal L v2 v1.
Proof. exact vec_equal_sym. Qed.
Print Assumptions C13_vector_equality_symmetric.

Theorem C13_reference_equality_reflexive : forall L m fl, elem_equal L m fl m fl = true.
Proof. exact elem_equal_refl. Qed.
Print Assumptions C13_reference_equality_reflexive.

Theorem C13_reference_equality_symmetric : forall L m1 fl1 m2 fl2,
  elem_equal L m1 fl1 m2 fl2 = elem_equal L m2 fl2 m1 fl1.
Proof. exact elem_equal_sym. Qed.
Print Assumptions C13_reference_equality_symmetric.

(* a field compared object by object is equal exactly when it holds the same objects,
   the same number of them included (four-iterator std::equal) *)
Theorem C13_field_equality_is_content_equality : forall t, t <> TFlt ->
  forall a b : list (list Z), span_eq t a b = true <-> a = b.
Proof. exact span_eq_eq. Qed.
Print Assumptions C13_field_equality_is_content_equality.

(* lists WITH floating-point fields (float / double: fundamental, not integral, so never on a
   memcmp path): two elements compare equal exactly when every field holds objects that are
   equal under the value type's own == - identity of the bytes for every other type, equality
   of the IEEE values for floats (+0 == -0 although the bytes differ).  The model compares
   floats through the sign-magnitude key Proxy.fkey; NaN bit patterns are outside its domain
   (C13 demands a reflexive ==), and on everything else the key comparison IS the IEEE one *)
Theorem C13_reference_equality_is_field_equivalence : forall L, wf_plist L = true ->
  forall t1 t2 fc1 fc2, tuple_ok L fc1 0 t1 -> tuple_ok L fc2 0 t2 ->
  forall m1 m2 a1 a2, elem_at L m1 a1 t1 -> elem_at L m2 a2 t2 ->
  (elem_equal L m1 (ref_fl L t1 a1) m2 (ref_fl L t2 a2) = true <->
   forall j, (j < length L)%nat -> span_eq (pty (nth j L pparam0)) (nth j t1 []) (nth j t2 []) = true).
Proof. exact elem_equal_content_eqv. Qed.
Print Assumptions C13_reference_equality_is_field_equivalence.

Theorem C13_float_comparison_is_ieee_off_nan : forall a b, fnan a = false -> fnan b = false ->
  ieee_eq a b = obj_eq TFlt a b /\ ieee_lt a b = obj_lt TFlt a b.
Proof. exact ieee_agrees. Qed.
Print Assumptions C13_float_comparison_is_ieee_off_nan.

(* +0.0f and -0.0f (bytes 00 00 00 00 / 00 00 00 80) are equal and unordered; 1.0f < 2.0f;
   -1.0f < +0.0f; 0x7FC00000 is a NaN, 0x7F800000 (infinity) is not *)
Example C13_float_values :
  obj_eq TFlt [0;0;0;0] [0;0;0;128] = true /\ obj_lt TFlt [0;0;0;0] [0;0;0;128] = false /\
  obj_lt TFlt [0;0;0;128] [0;0;0;0] = false /\
  obj_lt TFlt [0;0;128;63] [0;0;0;64] = true /\ obj_lt TFlt [0;0;128;191] [0;0;0;0] = true /\
  fnan [0;0;192;127] = true /\ fnan [0;0;128;127] = false /\ fnan [0;0;0;0;0;0;240;127] = false /\
  fnan [1;0;0;0;0;0;240;127] = true.
Proof. vm_compute. repeat split. Qed.

(* != is the negation of ==, <= / >= the negations of > / < : how the library derives them *)
Theorem C13_not_equal_is_negation : forall L v1 v2,
  nth 1 (cmp_vecs L v1 v2) false = negb (nth 0 (cmp_vecs L v1 v2) false) /\
  forall i j, nth 1 (cmp_refs L v1 i v2 j) false = negb (nth 0 (cmp_refs L v1 i v2 j) false).
Proof. intros L v1 v2. split; [reflexivity|intros i j; reflexivity]. Qed.
Print Assumptions C13_not_equal_is_negation.

(* non-vacuity: (uint8, AlignAs<uint32,4>) has padding between its two fields, so each is a
   memcmp run of its own; two vectors with the same contents built under junk fills 170 and 85
   compare equal, element by element and as a whole *)
Definition Lpad : list param :=
  [ {| pk := Plain; psz := 1; pal := 1; pty := TU8 |}; {| pk := Plain; psz := 4; pal := 4; pty := TUInt |} ].
Definition Kstd : akind := {| pocca := false; pocma := false; pocs := false; always_eq := true; soccc_bump := false |}.
Definition ops_pad : list op :=
  [ OpJunk 170; OpMkVec 0 2 0 [] 1; OpEmplace 0 [[[1]]; [[2;2;2;2]]]; OpEmplace 0 [[[3]]; [[1;1;1;1]]];
    OpJunk 85; OpMkVec 1 3 0 [] 1; OpEmplace 1 [[[1]]; [[2;2;2;2]]]; OpEmplace 1 [[[3]]; [[1;1;1;1]]] ].
Definition wpad := run_from Kstd Lpad world0 ops_pad O.
Example C13_padding_is_not_compared :
  padfree Lpad = false /\ runs_eq Lpad = [REnd 0; REnd 1] /\
  vec_equal Lpad (getv wpad 0) (getv wpad 1) = true /\
  ref_equal Lpad (getv wpad 0) 1 (getv wpad 1) 1 = true /\
  ref_equal Lpad (getv wpad 0) 0 (getv wpad 1) 1 = false.
Proof. vm_compute. repeat split. Qed.

(* vector == for EVERY list (floating-point fields included) on the element-wise path - which
   lists with a non-memcmp-able type always take: in every pair of represented states it is true
   exactly when the two lists have the same length and corresponding elements hold field-wise
   equal objects under the value type's own == *)
Theorem C13_vector_equality_is_field_equivalence : forall L, wf_plist L = true ->
  forall v1 l1 v2 l2, Rep L v1 l1 -> Rep L v2 l2 ->
  (forallb eqm L && padfree L && list_eqb (v_fixed v1) (v_fixed v2)) = false ->
  (vec_equal L v1 v2 = true <->
   length l1 = length l2 /\ forall i, (i < length l1)%nat -> tuple_eqv L (nth i l1 []) (nth i l2 [])).
Proof. intros L Hwf v1 l1 v2 l2 [o1 R1] [o2 R2]. exact (vec_equal_eqv_elementwise L Hwf v1 v2 l1 l2 o1 o2 R1 R2). Qed.
Print Assumptions C13_vector_equality_is_field_equivalence.
