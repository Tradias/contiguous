(* C12 — ContiguousElement is an independent deep copy.
   Proved for EVERY well-formed parameter list of trivially copy/move-constructible value
   types, every SA-aligned source position, every junk content of the fresh block and either
   construction form (copy / move): the element constructed from a reference owns a fresh
   block that holds exactly the source element's tuple (elem_at ... 0 t), its reference is the
   field table of that tuple at offset 0, the source memory is unchanged, and the number of
   storage units requested is the rounded-up byte size of the element.  In the model an
   element's bytes live in its own record, so later changes of the vector cannot reach it;
   that the real blocks are distinct is decided by the correspondence check (DESIGN.md, C12).
   Below: copy construction, the paths of copy and move assignment, swap, the
   allocator-extended move constructor, and the size of the element's block. *)
From Coq Require Import ZArith List Bool.
From Cntgs Require Import Layout Vector Proxy Elem World Spec Rep ElemThm AssignThm MoveThm ByteElem.
Import ListNotations.
Local Open Scope Z_scope.

Theorem C12_element_from_reference_is_deep_copy : forall L, wf_plist L = true -> (forall mv, all_ctriv mv L = true) ->
  forall mv ms a t fc sb aid junk nb,
  tuple_ok L fc 0 t -> elem_at L ms a t -> 0 <= a -> (SA L | a) ->
  let '(ms1, el, evs) := elem_from_ref mv L ms (ref_fl L t a) sb aid junk nb in
  ms1 = ms /\ elem_at L (e_mem el) 0 t /\ e_fl el = ref_fl L t 0 /\
  e_bid el = Some nb /\ e_aid el = aid /\ e_units el = units L (elem_end L a t - a).
Proof. exact elem_from_ref_spec. Qed.
Print Assumptions C12_element_from_reference_is_deep_copy.

(* copies and assignments between elements, for trivially constructible and destructible
   value types: the target ends up holding exactly the source's tuple in a block of its
   own / in the block it took over; on the re-allocating path whatever the target held before
   (also nothing: a moved-from element) and whatever its size *)
Theorem C12_element_copy_construction : forall L, wf_plist L = true -> (forall mv, all_ctriv mv L = true) ->
  forall src t fc aid junk nb, tuple_ok L fc 0 t -> elem_holds L src t ->
  let '(d, evs) := elem_copy L src aid junk nb in
  elem_holds L d t /\ e_bid d = Some nb /\ e_aid d = aid /\ e_units d = e_units src.
Proof. exact elem_copy_spec. Qed.
Print Assumptions C12_element_copy_construction.

Theorem C12_element_copy_assignment_reallocating : forall L, wf_plist L = true ->
  (forall mv, all_ctriv mv L = true) -> all_dtriv L = true ->
  forall pocca ae d src t fc junk nb, tuple_ok L fc 0 t -> elem_holds L src t ->
  (fixed_or_plain L && (negb pocca || ae) && match e_bid d with Some _ => true | None => false end) = false ->
  let '(d', evs, nb') := elem_copy_assign pocca ae L d src junk nb in
  elem_holds L d' t /\ e_bid d' = Some nb /\ e_aid d' = (if pocca then e_aid src else e_aid d) /\
  e_units d' = e_units src.
Proof. exact elem_copy_assign_general_spec. Qed.
Print Assumptions C12_element_copy_assignment_reallocating.

(* copy assignment on the field-wise path (FixedSize / plain lists, every value type category and
   every shape of the run table): the target keeps its block and holds the source's tuple *)
Theorem C12_element_copy_assignment_fieldwise : forall L, wf_plist L = true ->
  forall pocca ae d src ts td fcs fcd junk nb,
  tuple_ok L fcs 0 ts -> tuple_ok L fcd 0 td -> cnts_of td = cnts_of ts ->
  elem_holds L src ts -> elem_holds L d td ->
  (fixed_or_plain L && (negb pocca || ae) && match e_bid d with Some _ => true | None => false end) = true ->
  let '(d', evs, nb') := elem_copy_assign pocca ae L d src junk nb in
  elem_holds L d' ts /\ e_bid d' = e_bid d /\ e_units d' = e_units d /\
  e_aid d' = (if pocca then e_aid src else e_aid d) /\ nb' = nb.
Proof. exact elem_copy_assign_fieldwise_spec. Qed.
Print Assumptions C12_element_copy_assignment_fieldwise.

Theorem C12_element_move_assignment_stealing : forall L pocma d src t, elem_holds L src t ->
  let '(d', src', evs) := elem_steal pocma L d src in
  elem_holds L d' t /\ e_bid d' = e_bid src /\ e_bid src' = None /\
  e_aid d' = (if pocma then e_aid src else e_aid d).
Proof. exact elem_steal_spec. Qed.
Print Assumptions C12_element_move_assignment_stealing.

(* swap exchanges the complete contents (blocks and references), the allocators only with POCS *)
Theorem C12_swap_exchanges : forall pocs a b,
  let '(a', b') := elem_swap pocs a b in
  e_mem a' = e_mem b /\ e_fl a' = e_fl b /\ e_bid a' = e_bid b /\
  e_mem b' = e_mem a /\ e_fl b' = e_fl a /\ e_bid b' = e_bid a /\
  e_aid a' = (if pocs then e_aid b else e_aid a) /\ e_aid b' = (if pocs then e_aid a else e_aid b).
Proof. intros pocs a b. cbn. repeat split. Qed.
Print Assumptions C12_swap_exchanges.

(* a moved-from element has no memory and releases nothing *)
Theorem C12_moved_from_element_is_empty : forall L e,
  e_bid (elem_moved_from e) = None /\ elem_destroy L (elem_moved_from e) = [].
Proof. intros L e. split; reflexivity. Qed.
Print Assumptions C12_moved_from_element_is_empty.

(* non-vacuity and independence on a concrete history: (size_t@8, VaryingSize<4 bytes>) -
   an element is made from v[1], then v[1] is overwritten through a reference; the element
   still reads the old values, the vector the new ones; assigning the element back restores them *)
Definition Lv : list param :=
  [ {| pk := Plain; psz := 8; pal := 8; pty := TUInt |}; {| pk := Varying; psz := 4; pal := 1; pty := TBlob |} ].
Definition Kpmr : akind := {| pocca := false; pocma := false; pocs := false; always_eq := false; soccc_bump := false |}.
Definition ops12 : list op :=
  [ OpMkVec 0 3 64 [] 1;
    OpEmplace 0 [[[2;0;0;0;0;0;0;0]]; [[1;1;1;1]; [2;2;2;2]]];
    OpEmplace 0 [[[2;0;0;0;0;0;0;0]]; [[5;5;5;5]; [6;6;6;6]]];
    OpEFromRef 0 0 1 false 2;
    OpWrite 0 1 1 0 [9;9;9;9] ].
Definition w12 := run_from Kpmr Lv world0 ops12 O.
Example C12_independent :
  read_objs (e_mem (gete w12 0)) (nth 1 Lv pparam0) (nth 1 (e_fl (gete w12 0)) fld0) = [[5;5;5;5]; [6;6;6;6]] /\
  read_objs (v_mem (getv w12 0)) (nth 1 Lv pparam0) (nth 1 (vfl Lv (getv w12 0) 1) fld0) = [[9;9;9;9]; [6;6;6;6]] /\
  e_bid (gete w12 0) <> v_bid (getv w12 0) /\ e_aid (gete w12 0) = 2.
Proof. vm_compute. repeat split; discriminate. Qed.

(* field-wise MOVE assignment (FixedSize / plain lists, unequal non-propagating allocators, the
   target owns a block): the target holds exactly the source's tuple in its own block with its
   own allocator, for every value-type category and run-table shape (MoveThm.v) *)
Theorem C12_element_move_assignment_fieldwise : forall L, wf_plist L = true ->
  forall d src ts td fcs fcd junk nb,
  tuple_ok L fcs 0 ts -> tuple_ok L fcd 0 td -> cnts_of td = cnts_of ts ->
  elem_holds L src ts -> elem_holds L d td -> e_aid d <> e_aid src ->
  (fixed_or_plain L && match e_bid d with Some _ => true | None => false end) = true ->
  let '(d', src', evs, nb') := elem_move_assign false false L d src junk nb in
  elem_holds L d' ts /\ e_bid d' = e_bid d /\ e_units d' = e_units d /\ e_aid d' = e_aid d /\
  e_bid src' = e_bid src /\ nb' = nb.
Proof. exact elem_move_assign_fieldwise_spec. Qed.
Print Assumptions C12_element_move_assignment_fieldwise.

(* an element over an allocator of std::byte (the alias cntgs::ContiguousElement): the block
   requested for it is a whole number of storage units that covers the element's
   size_in_bytes() and exceeds it by less than one unit — whatever the allocator's value_type;
   that the real element then is a faithful, aligned copy is the correspondence marker EBYTE *)
Theorem C12_byte_allocator_element_block : forall K L w s i, wf_plist L = true ->
  0 <= ref_bytes L (vfl L (getv w s) i) ->
  exists b, w_out (step K L w (OpEByte s i)) = OEByte true b :: w_out w /\
    ref_bytes L (vfl L (getv w s) i) <= b < ref_bytes L (vfl L (getv w s) i) + SA L /\ (SA L | b).
Proof. exact byte_element_block. Qed.
Print Assumptions C12_byte_allocator_element_block.

(* move assignment on the general path (unequal non-propagating allocators and a VaryingSize
   list, or a target without storage) - "also between elements of different varying sizes and
   with different allocators": whether the target's block is replaced or reused it ends up
   holding the source's tuple, with its own allocator *)
Theorem C12_element_move_assignment_general : forall L, wf_plist L = true ->
  (forall mv, all_ctriv mv L = true) -> all_dtriv L = true ->
  forall pocma ae d src t fc junk nb, tuple_ok L fc 0 t -> elem_holds L src t ->
  (ae || pocma || (e_aid d =? e_aid src)) = false ->
  (fixed_or_plain L && match e_bid d with Some _ => true | None => false end) = false ->
  let '(d', src', evs, nb') := elem_move_assign pocma ae L d src junk nb in
  elem_holds L d' t /\ e_aid d' = e_aid d /\
  e_bid d' = (if e_units d <? ref_bytes L (e_fl src) then Some nb else e_bid d) /\
  e_mem src' = e_mem src /\ e_fl src' = e_fl src /\ e_bid src' = e_bid src.
Proof. exact elem_move_assign_general_spec. Qed.
Print Assumptions C12_element_move_assignment_general.

Theorem C12_element_allocator_extended_move_construction : forall L, wf_plist L = true ->
  (forall mv, all_ctriv mv L = true) ->
  forall ae src t fc aid junk nb, tuple_ok L fc 0 t -> elem_holds L src t ->
  let '(d, src', evs, fresh) := elem_move_alloc ae L src aid junk nb in
  elem_holds L d t /\
  (if ae || (aid =? e_aid src)
   then e_bid d = e_bid src /\ e_bid src' = None /\ fresh = false
   else e_bid d = Some nb /\ e_aid d = aid /\ e_units d = e_units src /\ e_bid src' = e_bid src /\
        e_mem src' = e_mem src /\ fresh = true).
Proof. exact elem_move_alloc_spec. Qed.
Print Assumptions C12_element_allocator_extended_move_construction.

(* the block of an element always covers what is copied into it *)
Theorem C12_element_block_covers_its_content : forall mv L ms fls sb aid junk nb, wf_plist L = true ->
  0 <= ref_bytes L fls ->
  let el := snd (fst (elem_from_ref mv L ms fls sb aid junk nb)) in
  ref_bytes L fls <= SA L * e_units el.
Proof. exact elem_from_ref_block_covers. Qed.
Print Assumptions C12_element_block_covers_its_content.

(* move assignment between unequal non-propagating allocators (general path) reuses the target's
   block only when the source's bytes fit into it, otherwise a new block of the source's unit
   count is requested (seeded change C02f compared rounded-down units) *)
Theorem C12_element_move_assignment_reuses_only_fitting_blocks : forall pocma ae L d src junk nb,
  wf_plist L = true ->
  (ae || pocma || (e_aid d =? e_aid src)) = false ->
  (fixed_or_plain L && match e_bid d with Some _ => true | None => false end) = false ->
  0 <= e_units d ->
  let d' := fst (fst (fst (elem_move_assign pocma ae L d src junk nb))) in
  if e_units d <? ref_bytes L (e_fl src)
  then e_units d' = e_units src /\ e_bid d' = Some nb
  else ref_bytes L (e_fl src) <= SA L * e_units d' /\ e_units d' = e_units d.
Proof. exact elem_move_assign_block_covers. Qed.
Print Assumptions C12_element_move_assignment_reuses_only_fitting_blocks.
