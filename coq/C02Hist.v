(* C02Hist.v — C02 / C10 at history level: along EVERY valid history of emplace_back /
   pop_back / erase / erase(first,last) / clear / reserve that respects the documented limits
   (size() < capacity() and the varying payload within the byte budget of the construction or
   of the last growing reserve), every stored element ends inside the block the vector owns.
   For every well-formed list whose tail is benign (NeededThm.tail_ok), non-trivial value types
   included; erase with elements behind the erased ones as far as NtRefine.vstep_rep_ntx covers
   it (trivially relocatable lists and lists without a VaryingSize parameter).
   The invariant BInv: the representation with tight packing, a ghost budget that follows the
   history, and needed(capacity, budget) <= block.  It is preserved for every well-formed list;
   the benign tail is what makes it imply the bound (NeededThm.needed_sufficient). *)
From Coq Require Import ZArith Lia List.
From Cntgs Require Import ListAux BaseLemmas Layout LayoutThm Vector Spec Rep Ordered EsizeThm Refine StableThm
     C02Thm NeededThm NtRefine.
Import ListNotations.
Local Open Scope Z_scope.

Definition tpayload (L : list param) (l : list tuple) : Z := payload L (map cnts_of l).

(* the ghost budget: what the block was obtained for *)
Definition bstep (s : svec) (B : Z) (o : sop) : Z :=
  match o with SReserve n b => if s_cap s <? n then b else B | _ => B end.
Definition bvalid (L : list param) (s : svec) (B : Z) (o : sop) : Prop :=
  match o with
  | SEmplace t => tpayload L (s_elems s ++ [t]) <= B
  | SReserve n b => 0 <= b /\ (s_cap s < n -> tpayload L (s_elems s) <= b)
  | _ => True
  end.
Fixpoint bhist_valid (L : list param) (s : svec) (B : Z) (h : list sop) : Prop :=
  match h with
  | [] => True
  | o :: h' => bvalid L s B o /\ bhist_valid L (sstep s o) (bstep s B o) h'
  end.

Lemma tuple_ok_cnts_fit L : forall fc prevc t, tuple_ok L fc prevc t -> cnts_fit L fc (cnts_of t).
Proof.
  induction L as [|p L IH]; intros fc prevc t H.
  - destruct t; [exact I|destruct fc; contradiction].
  - destruct fc as [|c fc]; [contradiction|]. destruct t as [|f t]; [contradiction|].
    destruct H as (Ho & Hc & Ht). cbn [cnts_of map cnts_fit hd tl]. fold (cnts_of t).
    split; [lia|]. split; [intros Hk; rewrite Hk in Hc; lia|]. split; [intros Hk; rewrite Hk in Hc; lia|].
    eapply IH; eauto.
Qed.

Lemma vbytes_nonneg L : forall fc cnts, Forall wfp L -> cnts_fit L fc cnts -> 0 <= vbytes L cnts.
Proof.
  induction L as [|p L IH]; intros fc cnts HF H; destruct cnts as [|c cnts]; cbn [vbytes]; try lia.
  destruct H as (H0 & _ & _ & H). apply Forall_cons_iff in HF. destruct HF as [[Hs _] HF].
  specialize (IH _ _ HF H). pose proof (mul_size_nonneg c (psz p) H0 Hs). destruct (is_varying p); lia.
Qed.

Lemma counts_vbytes L : forall fixed, vbytes L (counts L fixed []) = 0.
Proof.
  induction L as [|p L IH]; intros fixed; [reflexivity|]. cbn [counts].
  destruct (pk p) eqn:Hk; cbn [vbytes hd tl]; unfold is_varying; rewrite Hk, IH; reflexivity.
Qed.

(* Htl is what rep_end_bound, esize_signs and binv_in_block rest on; Htriv only lets binv_step and
   binv_run discharge the restriction nt_okx of their _ntx forms, which assume neither *)
Section Hist.
  Variable L : list param.
  Hypothesis Hwf : wf_plist L = true.
  Hypothesis Htriv : all_triv L = true.
  Hypothesis Htl : tail_ok (SA L) true L = true.

  Let HF : Forall wfp L := wf_plist_Forall L Hwf.
  Let HSp : 0 < SA L := SA_pos L Hwf.

  Lemma tpayload_app l1 l2 : tpayload L (l1 ++ l2) = tpayload L l1 + tpayload L l2.
  Proof.
    unfold tpayload, payload. induction l1 as [|t l1 IH]; cbn [app map fold_right]; [lia|]. rewrite IH. lia.
  Qed.

  Lemma tpayload_nonneg fc l : Forall (tuple_ok L fc 0) l -> 0 <= tpayload L l.
  Proof.
    induction 1 as [|t l Ht _ IH]; unfold tpayload, payload in *; cbn [map fold_right]; [lia|].
    pose proof (vbytes_nonneg L fc (cnts_of t) HF (tuple_ok_cnts_fit L fc 0 t Ht)). lia.
  Qed.

  Lemma tpayload_remove_range fc i j l : Forall (tuple_ok L fc 0) l -> (i <= j)%nat ->
    tpayload L (remove_range i j l) <= tpayload L l.
  Proof.
    intros Hl Hij. unfold remove_range.
    (* l = firstn i l ++ the removed elements ++ skipn j l *)
    assert (E : firstn i l ++ firstn (j - i) (skipn i l) ++ skipn j l = l).
    { replace (skipn j l) with (skipn (j - i) (skipn i l)) by (rewrite skipn_skipn_; f_equal; lia).
      rewrite !firstn_skipn. reflexivity. }
    apply (f_equal (tpayload L)) in E. rewrite !tpayload_app in E. rewrite tpayload_app.
    assert (0 <= tpayload L (firstn (j - i) (skipn i l))).
    { apply (tpayload_nonneg fc), Forall_firstn_, Forall_skipn_, Hl. }
    lia.
  Qed.

  Lemma tpayload_removelast fc l : Forall (tuple_ok L fc 0) l -> tpayload L (removelast l) <= tpayload L l.
  Proof.
    intros Hl. pose proof (tpayload_remove_range fc (Nat.pred (length l)) (length l) l Hl (Nat.le_pred_l _)) as H.
    unfold remove_range in H. rewrite skipn_all, app_nil_r, <- removelast_firstn_len in H. exact H.
  Qed.

  Lemma chain_is_fill : forall offs l lo hi, elems_tight L lo offs l hi ->
    eo_end L lo offs l = fill L (map cnts_of l) lo.
  Proof.
    induction offs as [|a offs IH]; intros [|t l] lo hi H; cbn [elems_tight] in H; try contradiction; [reflexivity|].
    destruct H as [Ea H]. cbn [eo_end map fill]. rewrite <- Ea. apply (IH l _ hi H).
  Qed.

  Lemma rep_end_bound v l offs : RepO L v l offs ->
    eo_end L 0 offs l <= needed (Z.of_nat (length l)) (tpayload L l) (esize L (v_fixed v)).
  Proof.
    intros R. rewrite (chain_is_fill offs l 0 _ (r_tight _ _ _ _ R)).
    pose proof (needed_sufficient L (v_fixed v) (map cnts_of l) (tpayload L l) Hwf Htl) as H.
    rewrite map_length in H. apply H.
    - apply Forall_map. eapply Forall_impl; [|exact (r_tuples _ _ _ _ R)]. intros t. apply tuple_ok_cnts_fit.
    - unfold tpayload. lia.
    - eapply tpayload_nonneg. exact (r_tuples _ _ _ _ R).
  Qed.

  (* size and stride are not negative: element_bound at the count vector of an element without
     varying payload (counts L fixed []) bounds a non-negative length by each of them; its bound
     by the stride is stated under tail_ok *)
  Lemma esize_signs fixed : Forall (fun c => 0 <= c) fixed ->
    0 <= fst (esize L fixed) /\ 0 <= snd (esize L fixed).
  Proof.
    intros Hfx.
    pose proof (cnts_match_fit L _ _ (counts_match L fixed (fixed_counts_nonneg L fixed Hfx))) as Hfit.
    destruct (element_bound L fixed _ 0 Hwf Hfit ltac:(lia) (Z.divide_0_r _)) as [H1 H2]. cbv zeta in H1, H2.
    specialize (H2 Htl). rewrite counts_vbytes in H1, H2.
    assert (He : 0 <= snd (place L (counts L fixed []) 0)).
    { unfold place. apply place_from_end_ge; auto. eapply cnts_fit_nonneg; eauto. }
    pose proof (first_align_ge L (snd (place L (counts L fixed []) 0)) Hwf). lia.
  Qed.

  Lemma needed_mono n n' b b' sz : 0 <= fst sz -> 0 <= snd sz -> 0 <= n <= n' -> b <= b' ->
    needed n b sz <= needed n' b' sz.
  Proof.
    intros Hs Hst Hn Hb. unfold needed. destruct sz as [size stride]. cbn [fst snd] in *.
    destruct (Z.eqb_spec n 0) as [->|Hn0]; destruct (Z.eqb_spec n' 0) as [->|Hn0']; try lia.
    - assert (0 <= stride * (n' - 1)) by (apply Z.mul_nonneg_nonneg; lia). lia.
    - assert (stride * n <= stride * n') by (apply Z.mul_le_mono_nonneg_l; lia). lia.
  Qed.

  Definition BInv (v : vec) (s : svec) (B : Z) : Prop :=
    Rep L v (s_elems s) /\ v_cap v = s_cap s /\ 0 <= v_cap v /\ 0 <= B /\ tpayload L (s_elems s) <= B /\
    Forall (fun c => 0 <= c) (v_fixed v) /\
    (has_varying L = false -> v_stride v = snd (esize L (v_fixed v))) /\
    needed (v_cap v) B (esize L (v_fixed v)) <= SA L * v_units v.

  Theorem binv_in_block v s B : BInv v s B ->
    exists offs, RepO L v (s_elems s) offs /\
      Forall2 (fun a t => 0 <= a /\ elem_end L a t <= SA L * v_units v) offs (s_elems s).
  Proof.
    intros ([offs R] & Hc & Hc0 & HB & Hp & Hfx & _ & Hblk).
    exists offs. split; [exact R|].
    pose proof (rep_end_bound v _ offs R) as He.
    destruct (esize_signs _ Hfx) as [Hs Hst].
    pose proof (r_cap _ _ _ _ R) as Hcap.
    assert (Hnm : needed (Z.of_nat (length (s_elems s))) (tpayload L (s_elems s)) (esize L (v_fixed v))
                  <= needed (v_cap v) B (esize L (v_fixed v))) by (apply needed_mono; auto; lia).
    pose proof (eo_bounds L Hwf _ _ _ _ (eo_tight L _ _ _ _ (r_order _ _ _ _ R))) as Hb.
    eapply Forall2_impl_; [|exact Hb]. cbn beta. intros a t (H0 & _ & H1). split; [exact H0|]. clear - H1 He Hnm Hblk. lia.
  Qed.

  (* the ghost budget keeps covering the payload: emplace_back and a growing reserve by their
     preconditions, the other operations because they only remove elements *)
  Lemma budget_step fc s B o : Forall (tuple_ok L fc 0) (s_elems s) -> svalid L fc s o -> bvalid L s B o ->
    0 <= B -> tpayload L (s_elems s) <= B ->
    0 <= bstep s B o /\ tpayload L (s_elems (sstep s o)) <= bstep s B o.
  Proof.
    intros HT Hv Hbv HB Hp. destruct o as [t| |i|i j| |n b]; cbn [sstep bstep s_elems bvalid svalid] in *.
    - split; [exact HB|exact Hbv].
    - split; [exact HB|]. pose proof (tpayload_removelast fc _ HT). lia.
    - split; [exact HB|]. pose proof (tpayload_remove_range fc (Z.to_nat i) (S (Z.to_nat i)) _ HT ltac:(lia)). lia.
    - split; [exact HB|]. pose proof (tpayload_remove_range fc (Z.to_nat i) (Z.to_nat j) _ HT ltac:(lia)). lia.
    - split; exact HB.
    - destruct Hbv as [Hb0 Hbv]. destruct (Z.ltb_spec (s_cap s) n); [split; [exact Hb0|apply Hbv; assumption]|split; assumption].
  Qed.

  (* the block a growing reserve requests holds the new capacity with the new budget; a list
     without VaryingSize parameter asks for stride * n, and its stride is at least its size *)
  Lemma reserve_block fixed stride n b : Forall (fun c => 0 <= c) fixed ->
    (has_varying L = false -> stride = snd (esize L fixed)) ->
    needed n b (esize L fixed) <=
    SA L * units L (if has_varying L then needed n b (esize L fixed) else needed_grow_fixed n b stride).
  Proof.
    intros Hfx Hstr. destruct (has_varying L) eqn:Hv; [apply units_bounds, HSp|].
    eapply Z.le_trans; [|apply units_bounds, HSp]. rewrite (Hstr eq_refl). unfold needed_grow_fixed, needed.
    pose proof (align_up_ge (fst (esize L fixed)) (SA L) HSp) as Hge.
    rewrite <- (esize_stride_align L _ Hwf Hv (fixed_counts_nonneg L _ Hfx)) in Hge.
    destruct (esize L fixed) as [size stride']. cbn [fst snd] in *. destruct (n =? 0); lia.
  Qed.

  (* the block keeps holding capacity and budget (what a step does to the size of the block is
     StableThm.vstep_stride_units) *)
  Lemma block_step junk v s B o : v_cap v = s_cap s -> Forall (fun c => 0 <= c) (v_fixed v) ->
    (has_varying L = false -> v_stride v = snd (esize L (v_fixed v))) ->
    0 <= v_cap v -> needed (v_cap v) B (esize L (v_fixed v)) <= SA L * v_units v ->
    0 <= s_cap (sstep s o) /\
    needed (s_cap (sstep s o)) (bstep s B o) (esize L (v_fixed v)) <= SA L * v_units (vstep L junk v o).
  Proof.
    intros Hc Hfx Hstr Hc0 Hblk. rewrite (proj2 (vstep_stride_units L junk v o)). rewrite Hc in *.
    destruct o as [t| |i|i j| |n b]; cbn [sstep bstep s_cap] in *; try (split; assumption).
    destruct (Z.ltb_spec (s_cap s) n) as [Hlt|Hge].
    - rewrite Z.max_r by lia. split; [lia|apply reserve_block; assumption].
    - rewrite Z.max_l by lia. split; assumption.
  Qed.

  (* the step of the invariant, given what the operation does to the representation *)
  Lemma binv_step_of junk v s B o : BInv v s B ->
    svalid L (fixed_counts L (v_fixed v)) s o -> bvalid L s B o ->
    Rep L (vstep L junk v o) (s_elems (sstep s o)) /\ v_cap (vstep L junk v o) = s_cap (sstep s o) /\
    v_fixed (vstep L junk v o) = v_fixed v ->
    BInv (vstep L junk v o) (sstep s o) (bstep s B o).
  Proof.
    intros (R & Hc & Hc0 & HB & Hp & Hfx & Hstr & Hblk) Hv Hbv (R' & Hc' & Hf).
    assert (HT : Forall (tuple_ok L (fixed_counts L (v_fixed v)) 0) (s_elems s)).
    { destruct R as [offs R]. exact (r_tuples _ _ _ _ R). }
    destruct (budget_step _ s B o HT Hv Hbv HB Hp) as [HB' Hp'].
    destruct (block_step junk v s B o Hc Hfx Hstr Hc0 Hblk) as [Hc0' Hblk'].
    unfold BInv. rewrite Hf, (proj1 (vstep_stride_units L junk v o)), Hc'.
    split; [exact R'|]. split; [reflexivity|]. repeat split; assumption.
  Qed.

  Theorem binv_step_ntx junk v s B o : BInv v s B ->
    svalid L (fixed_counts L (v_fixed v)) s o -> bvalid L s B o -> nt_okx L s o ->
    BInv (vstep L junk v o) (sstep s o) (bstep s B o).
  Proof.
    intros HI Hv Hbv Hn. pose proof HI as (R & Hc & _).
    exact (binv_step_of junk v s B o HI Hv Hbv (vstep_rep_ntx L Hwf junk v s o R Hc Hv Hn)).
  Qed.

  Theorem binv_step junk v s B o : BInv v s B ->
    svalid L (fixed_counts L (v_fixed v)) s o -> bvalid L s B o ->
    BInv (vstep L junk v o) (sstep s o) (bstep s B o).
  Proof using Hwf Htriv Htl. intros HI Hv Hbv. exact (binv_step_ntx junk v s B o HI Hv Hbv (or_intror (or_introl Htriv))). Qed.

  Theorem binv_run_ntx junk h : forall v s B, BInv v s B ->
    shist_valid L (fixed_counts L (v_fixed v)) s h -> bhist_valid L s B h -> nt_hist_okx L s h ->
    exists B', BInv (vrun L junk v h) (srun s h) B'.
  Proof.
    intros v s B HI Hv Hb Hn.
    destruct (vrun_ind L (fun v s h => exists B, BInv v s B /\ bhist_valid L s B h /\ nt_hist_okx L s h) junk) with (h := h) (v := v) (s := s)
      as (B' & HI' & _); eauto.
    intros v1 s1 o h1 (B1 & HI1 & [Hb1 Hb2] & [Hn1 Hn2]) Hv1. exists (bstep s1 B1 o).
    split; [exact (binv_step_ntx junk v1 s1 B1 o HI1 Hv1 Hb1 Hn1)|split; assumption].
  Qed.

  Theorem binv_run junk h : forall v s B, BInv v s B ->
    shist_valid L (fixed_counts L (v_fixed v)) s h -> bhist_valid L s B h ->
    exists B', BInv (vrun L junk v h) (srun s h) B'.
  Proof using Hwf Htriv Htl. intros v s B HI Hv Hb. exact (binv_run_ntx junk h v s B HI Hv Hb (nt_hist_okx_triv L h Htriv s)). Qed.

  Theorem binv_init cap budget fixed aid junk bid tbid : 0 <= cap -> 0 <= budget ->
    Forall (fun c => 0 <= c) fixed ->
    BInv (fst (mkvec L cap budget fixed aid junk bid tbid)) {| s_cap := cap; s_elems := [] |} budget.
  Proof.
    intros Hcap Hb Hfx.
    assert (Hst : has_varying L = false -> stride_ok L (fixed_counts L fixed) (snd (esize L fixed))).
    { intros Hnv. apply esize_stride_ok; auto. apply fixed_counts_nonneg; auto. }
    destruct (mkvec_rep L Hwf cap budget fixed aid junk bid tbid Hcap Hst) as (R0 & Hc0 & Hf0).
    cbv zeta in *. unfold BInv. rewrite Hf0, Hc0. cbn [s_cap s_elems]. split; [exact R0|].
    repeat split; auto; try lia; try (unfold tpayload, payload; cbn; lia).
    unfold mkvec. cbn [fst v_units]. apply units_bounds, HSp.
  Qed.
End Hist.

(* C02 (and the capacity promise of C10) for every valid history from construction; on lists
   without a VaryingSize parameter nt_hist_okx restricts nothing (NtRefine.nt_hist_okx_fixed) *)
Theorem every_element_inside_block_every_history_ntx : forall L cap budget fixed aid junk bid tbid h,
  wf_plist L = true -> tail_ok (SA L) true L = true ->
  0 <= cap -> 0 <= budget -> Forall (fun c => 0 <= c) fixed ->
  let v0 := fst (mkvec L cap budget fixed aid junk bid tbid) in
  let s0 := {| s_cap := cap; s_elems := [] |} in
  shist_valid L (fixed_counts L fixed) s0 h -> bhist_valid L s0 budget h -> nt_hist_okx L s0 h ->
  let v := vrun L junk v0 h in
  let l := s_elems (srun s0 h) in
  exists offs, RepO L v l offs /\
    Forall2 (fun a t => 0 <= a /\ elem_end L a t <= SA L * v_units v) offs l.
Proof.
  intros L cap budget fixed aid junk bid tbid h Hwf Htl Hcap Hb Hfx. cbv zeta. intros Hv Hbv Hn.
  pose proof (binv_init L Hwf cap budget fixed aid junk bid tbid Hcap Hb Hfx) as H0.
  destruct (binv_run_ntx L Hwf junk h _ _ _ H0) as [B' HI]; auto.
  eapply binv_in_block; eauto.
Qed.

Theorem every_element_inside_block_every_history : forall L cap budget fixed aid junk bid tbid h,
  wf_plist L = true -> all_triv L = true -> tail_ok (SA L) true L = true ->
  0 <= cap -> 0 <= budget -> Forall (fun c => 0 <= c) fixed ->
  let v0 := fst (mkvec L cap budget fixed aid junk bid tbid) in
  let s0 := {| s_cap := cap; s_elems := [] |} in
  shist_valid L (fixed_counts L fixed) s0 h -> bhist_valid L s0 budget h ->
  let v := vrun L junk v0 h in
  let l := s_elems (srun s0 h) in
  exists offs, RepO L v l offs /\
    Forall2 (fun a t => 0 <= a /\ elem_end L a t <= SA L * v_units v) offs l.
Proof.
  intros L cap budget fixed aid junk bid tbid h Hwf Ht Htl Hcap Hb Hfx v0 s0 Hv Hbv.
  apply every_element_inside_block_every_history_ntx; auto. apply nt_hist_okx_triv; exact Ht.
Qed.

(* the hypotheses are satisfiable: (uint32, VaryingSize<uint32>), capacity 2 / 12 payload
   bytes, filled to the limit, grown by reserve(4, 40), used further *)
Definition hxL : list param :=
  [ {| pk := Plain; psz := 4; pal := 4; pty := TUInt |};
    {| pk := Varying; psz := 4; pal := 4; pty := TUInt |} ].
Definition hxA : tuple := [[[1; 0; 0; 0]]; [[7; 0; 0; 0]]].
Definition hxB : tuple := [[[2; 0; 0; 0]]; [[8; 0; 0; 0]; [9; 0; 0; 0]]].
Definition hxH : list sop := [SEmplace hxA; SEmplace hxB; SReserve 4 40; SEmplace hxA; SErase 0; SEmplace hxB; SPopBack].
Example history_theorem_applies :
  wf_plist hxL = true /\ all_triv hxL = true /\ tail_ok (SA hxL) true hxL = true /\
  shist_valid hxL (fixed_counts hxL []) {| s_cap := 2; s_elems := [] |} hxH /\
  bhist_valid hxL {| s_cap := 2; s_elems := [] |} 12 hxH.
Proof.
  split; [reflexivity|]. split; [reflexivity|]. split; [reflexivity|]. split.
  - cbn. repeat split; try lia; try discriminate; repeat constructor.
  - cbn. unfold tpayload, payload. cbn. repeat split; lia.
Qed.
