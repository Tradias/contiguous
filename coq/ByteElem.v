(* ByteElem.v — an element over an allocator whose value_type is std::byte (the alias
   cntgs::ContiguousElement): the block it requests is a whole number of SA-sized storage
   units that covers the element's bytes and exceeds them by less than one unit. *)
From Coq Require Import ZArith Lia List Bool.
From Cntgs Require Import Layout LayoutThm Vector Proxy Elem World C02Thm ElemThm.
Import ListNotations.
Local Open Scope Z_scope.

Lemma units_tight L bytes : 0 < SA L -> 0 <= bytes ->
  bytes <= SA L * units L bytes < bytes + SA L /\ (SA L | SA L * units L bytes).
Proof. intros HS _. split; [apply units_bounds, HS|apply Z.divide_factor_l]. Qed.

Lemma byte_element_block K L w s i : wf_plist L = true ->
  0 <= ref_bytes L (vfl L (getv w s) i) ->
  exists b, w_out (step K L w (OpEByte s i)) = OEByte true b :: w_out w /\
    ref_bytes L (vfl L (getv w s) i) <= b < ref_bytes L (vfl L (getv w s) i) + SA L /\ (SA L | b).
Proof.
  intros Hwf Hb. eexists. split; [reflexivity|]. apply units_tight; [apply SA_pos; exact Hwf|exact Hb].
Qed.

(* C02 for elements: the block of value_type{reference} holds at least size_in_bytes() bytes *)
Theorem elem_from_ref_block_covers mv L ms fls sb aid junk nb : wf_plist L = true ->
  0 <= ref_bytes L fls ->
  let el := snd (fst (elem_from_ref mv L ms fls sb aid junk nb)) in
  ref_bytes L fls <= SA L * e_units el.
Proof.
  intros Hwf _. cbv zeta. destruct (elem_from_ref_shape mv L ms fls sb aid junk nb) as (ms1 & md1 & ->).
  apply units_bounds, SA_pos, Hwf.
Qed.

(* on the general path of move assignment the target's block is reused ONLY when the source's
   bytes fit into it: the library compares the byte count with the unit count - conservative,
   never too small *)
Theorem elem_move_assign_block_covers pocma ae L d src junk nb : wf_plist L = true ->
  (ae || pocma || (e_aid d =? e_aid src)) = false ->
  (fixed_or_plain L && match e_bid d with Some _ => true | None => false end) = false ->
  0 <= e_units d ->
  let d' := fst (fst (fst (elem_move_assign pocma ae L d src junk nb))) in
  if e_units d <? ref_bytes L (e_fl src)
  then e_units d' = e_units src /\ e_bid d' = Some nb
  else ref_bytes L (e_fl src) <= SA L * e_units d' /\ e_units d' = e_units d.
Proof.
  intros Hwf Hns Hpath Hu.
  pose proof (elem_destruct_units L d) as Hd1.
  remember (elem_move_assign pocma ae L d src junk nb) as r eqn:E.
  unfold elem_move_assign in E. rewrite Hns, Hpath in E.
  destruct (elem_destruct L d) as [d1 e1]. cbn [fst] in Hd1.
  destruct (Z.ltb_spec (e_units d) (ref_bytes L (e_fl src))) as [Hlt|Hge].
  - destruct (store_and_load true L (e_mem src) (e_fl src) (bidn (e_bid src)) (ref_bytes L (e_fl src)) junk nb)
      as [[[ms md] fld] e2].
    subst r. split; reflexivity.
  - destruct (store_and_load true L (e_mem src) (e_fl src) (bidn (e_bid src)) (ref_bytes L (e_fl src)) (e_mem d1)
                (bidn (e_bid d1))) as [[[ms md] fld] e2].
    subst r. cbn [fst e_units]. rewrite Hd1. split; [|reflexivity].
    (* the comparison is bytes against units: a unit is at least a byte *)
    pose proof (SA_pos L Hwf) as HS. clear -Hge Hu HS. nia.
Qed.
