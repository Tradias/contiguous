(* EsizeThm.v — for lists WITHOUT VaryingSize parameter the compile-time/run-time size
   computation (calculate_element_size) agrees with the placement: an element stored at a
   storage-aligned address occupies exactly [size] bytes and the stride is the least
   multiple of the storage alignment >= size (the exact-footprint clause of C05, and the
   [stride_ok] hypothesis of the refinement theorems). *)
From Coq Require Import ZArith Lia List Bool.
From Cntgs Require Import Base BaseLemmas Layout LayoutThm Spec Rep ElemLemmas.
Import ListNotations.
Local Open Scope Z_scope.

(* object counts of an element of a list without VaryingSize parameter *)
Fixpoint cnts_match (L : list param) (fc cnts : list Z) : Prop :=
  match L, cnts with
  | [], [] => True
  | p :: L', c :: cnts' =>
      c = (match pk p with Plain => 1 | _ => hd 0 fc end) /\ 0 <= c /\ cnts_match L' (tl fc) cnts'
  | _, _ => False
  end.

(* aligned_size_in_memory in closed form: a plain or FixedSize parameter holding [c] objects *)
Lemma asz_nonvar p prev next off al fixed c :
  is_varying p = false -> (pk p = Plain -> c = 1) -> (pk p = Fixed -> c = fixed) ->
  asz p prev next off al fixed =
    (let ao := if al <? pal p then align_up off al + pal p - al else align_if (prev <? pal p) (pal p) off in
     let no := if al <? pal p then c * psz p else off + (ao - off + c * psz p) in
     (no, ao - off + c * psz p, align_if (tr_align (psz p) (pal p) <? next) next no - no, Z.max al (pal p))).
Proof.
  intros Hv H1 Hf. unfold asz, is_varying in *. destruct (pk p); cbn [kind_eqb] in Hv; try discriminate.
  - rewrite (H1 eq_refl), Z.mul_1_l. destruct (al <? pal p); reflexivity.
  - rewrite (Hf eq_refl), (Z.mul_comm fixed). destruct (al <? pal p); reflexivity.
Qed.

Lemma asz_var p prev next off al fixed : is_varying p = true ->
  asz p prev next off al fixed =
    (let ao := if al <? pal p then align_up off al + pal p - al else align_if (prev <? pal p) (pal p) off in
     let tr := Z.min al (tr_align (psz p) (lowbit ao)) in
     (0, ao - off, (if tr <? next then next - tr else 0), tr)).
Proof. unfold asz, is_varying. destruct (pk p); try discriminate. reflexivity. Qed.

(* hence [next] only enters the padding *)
Lemma asz_next p prev next next' off al f :
  fst (fst (asz p prev next off al f)) = fst (fst (asz p prev next' off al f)) /\
  snd (asz p prev next off al f) = snd (asz p prev next' off al f).
Proof.
  destruct (is_varying p) eqn:Hv.
  - rewrite !(asz_var p prev _ off al f Hv). split; reflexivity.
  - rewrite !(asz_nonvar p prev _ off al f (match pk p with Fixed => f | _ => 1 end) Hv);
      try (intros ->; reflexivity). split; reflexivity.
Qed.

(* calculate_element_size without its index arithmetic.  [esize_from L0 L k] looks the previous
   trailing alignment and the next alignment of parameter [k] up in tables computed from the
   whole list [L0].  [esize_run] is the same fold over the rest [L] of the list with the
   previous trailing alignments [pvs] at hand; the next alignment is always the storage
   alignment [S0], because it only enters the padding ([asz_next]), and only the padding of
   the last parameter is kept. *)
Fixpoint esize_run (S0 : Z) (L : list param) (pvs fc : list Z) (size off pad al : Z) : Z * Z :=
  match L with
  | [] => (size, size + pad)
  | p :: L' =>
      let '(no, nsz, npad, nal) := asz p (hd 0 pvs) S0 off al (hd 0 fc) in
      esize_run S0 L' (tl pvs) (tl fc) (size + nsz) no npad nal
  end.

Lemma esize_from_run L0 L : forall k pvs fc size off pad al,
  (k + length L = length L0)%nat ->
  (forall j, (j < length L)%nat -> prev_tr L0 (k + j) = nth j pvs 0) ->
  esize_from L0 L k fc size off pad al = esize_run (SA L0) L pvs fc size off pad al.
Proof.
  induction L as [|p L IH]; intros k pvs fc size off pad al Hlen Hpv; [reflexivity|].
  cbn [esize_from esize_run].
  replace (prev_tr L0 k) with (hd 0 pvs)
    by (rewrite <- (Nat.add_0_r k), Hpv by (cbn [length]; lia); destruct pvs; reflexivity).
  destruct L as [|q L].
  - (* the last parameter: its next alignment is the storage alignment *)
    unfold next_al. rewrite (proj2 (Nat.eqb_eq (S k) (length L0))) by (cbn [length] in Hlen; lia).
    reflexivity.
  - pose proof (asz_next p (hd 0 pvs) (next_al L0 k) (SA L0) off al (hd 0 fc)) as [E1 E2].
    destruct (asz p (hd 0 pvs) (next_al L0 k) off al (hd 0 fc)) as [[[no nsz] npad] nal].
    destruct (asz p (hd 0 pvs) (SA L0) off al (hd 0 fc)) as [[[no' nsz'] npad'] nal'].
    cbn [fst snd] in E1, E2. injection E1 as -> ->. subst nal'.
    rewrite (IH (S k) (tl pvs)); [reflexivity|cbn [length] in *; lia|].
    intros j Hj. replace (S k + j)%nat with (k + S j)%nat by lia.
    rewrite Hpv by (cbn [length] in *; lia). destruct pvs; [destruct j|]; reflexivity.
Qed.

(* [a]: the storage-aligned address of the element; the running offset is the distance
   from it, the running size equals the offset *)
Lemma esize_run_exact S0 L : pow2 S0 -> forall fc cnts st prev off pad a,
  Forall wfp L -> (forall p, In p L -> is_varying p = false /\ (pal p | S0)) ->
  cnts_match L fc cnts -> Inv st prev (a + off) -> (S0 | a) -> 0 <= off -> L <> [] ->
  let e := snd (place_from L (prev :: trails_from L st) cnts (a + off)) in
  esize_run S0 L (prev :: trails_from L st) fc off off pad S0 = (e - a, align_up (e - a) S0).
Proof.
  intros HS. pose proof (pow2_pos _ HS) as HSp.
  induction L as [|p L IH]; intros fc cnts st prev off pad a Hwf Hnv Hcm HI HaS Hoff Hne; [congruence|].
  destruct cnts as [|c cnts]; [contradiction|]. destruct Hcm as (Hc & Hc0 & Hcm).
  apply Forall_cons_iff in Hwf. destruct Hwf as [[Hs Hal] HwL]. destruct (Hnv p (in_eq _ _)) as (Hv & Hpd).
  pose proof (pow2_pos _ Hal) as Halp. pose proof (Z.divide_pos_le _ _ HSp Hpd) as Hple.
  assert (Hc1 : pk p = Plain -> c = 1) by (intros Hk; rewrite Hk in Hc; exact Hc).
  assert (Hcf : pk p = Fixed -> c = hd 0 fc) by (intros Hk; rewrite Hk in Hc; exact Hc).
  destruct (step_sound p st prev (a + off) c (conj Hs Hal) (conj Hc0 Hc1) HI) as [[Hal' _ _] HI'].
  cbv zeta. cbn [esize_run trails_from hd tl].
  rewrite (asz_nonvar p prev S0 off S0 (hd 0 fc) c Hv Hc1 Hcf), (proj2 (Z.ltb_ge S0 (pal p)) Hple), Z.max_l by exact Hple.
  cbv zeta. destruct (tr_step p st) as [st' t]. cbn [fst snd] in HI'. rewrite place_from_cons. cbn [snd].
  (* relative and absolute aligned positions agree *)
  set (ao := align_if (prev <? pal p) (pal p) off).
  assert (Eao : align_if (prev <? pal p) (pal p) (a + off) = a + ao).
  { rewrite (Z.add_comm a off), align_if_shift; [apply Z.add_comm|exact Halp|exact (Z.divide_trans _ _ _ Hpd HaS)]. }
  rewrite Eao in *.
  pose proof (align_if_ge (prev <? pal p) (pal p) off Halp) as Hao. fold ao in Hao.
  pose proof (mul_size_nonneg c (psz p) Hc0 Hs) as Hcp.
  replace (a + ao + c * psz p) with (a + (off + (ao - off + c * psz p))) in * by lia.
  set (no := off + (ao - off + c * psz p)) in *.
  destruct L as [|q L'].
  - (* last parameter: its padding decides the stride *)
    cbn [esize_run place_from snd]. rewrite Z.add_simpl_l. f_equal.
    (* the padding is skipped only when the end is storage-aligned already *)
    rewrite align_if_prev; [apply Zplus_minus|exact HS|apply tr_align_pow2; auto|].
    unfold no. replace (off + (ao - off + c * psz p)) with (ao + c * psz p) by lia.
    apply tr_align_div; auto using Z.divide_factor_r.
    apply (Z.divide_add_cancel_r _ a); [exact (Z.divide_trans _ _ _ Hpd HaS)|exact Hal'].
  - rewrite (IH (tl fc) cnts st' t no _ a); auto using in_cons; try discriminate; try lia.
Qed.

Lemma novar_all L p : has_varying L = false -> In p L -> is_varying p = false.
Proof.
  intros Hnv Hp. destruct (is_varying p) eqn:E; [|reflexivity].
  unfold has_varying in Hnv. rewrite (proj2 (existsb_exists _ _)) in Hnv by eauto. discriminate.
Qed.

Section Esize.
  Variable L0 : list param.
  Hypothesis Hwf0 : wf_plist L0 = true.
  Hypothesis Hnovar : has_varying L0 = false.
  Let S0 := SA L0.

  (* size and stride computed by the library vs. the placement of an element *)
  Theorem esize_spec fixed cnts a :
    cnts_match L0 (fixed_counts L0 fixed) cnts -> 0 <= a -> (S0 | a) ->
    fst (esize L0 fixed) = snd (place L0 cnts a) - a /\
    snd (esize L0 fixed) = align_up (snd (place L0 cnts a) - a) S0.
  Proof.
    intros Hcm Ha HaS. pose proof (wf_plist_Forall L0 Hwf0) as HF. pose proof (wf_plist_nonempty L0 Hwf0) as Hne.
    unfold esize. rewrite (esize_from_run L0 L0 0 (prevs L0)) by (try reflexivity; intros j _; apply prev_tr_nth).
    unfold place, prevs, trails.
    rewrite (esize_run_exact S0 L0 (SA_pow2 L0 HF Hne) _ cnts _ _ 0 0 a); auto; try lia.
    - rewrite Z.add_0_r. split; reflexivity.
    - intros p Hp. split; [exact (novar_all L0 p Hnovar Hp)|apply SA_div; auto].
    - rewrite Z.add_0_r. apply Inv_init; auto.
  Qed.
End Esize.

Lemma tuple_ok_cnts_match L fc prevc t :
  has_varying L = false -> tuple_ok L fc prevc t -> cnts_match L fc (cnts_of t).
Proof.
  intros Hnv Ht. induction Ht as [|p L c fc prevc f t Ho Hc Ht IH] using tuple_ok_ind'; [exact I|].
  apply orb_false_iff in Hnv. destruct Hnv as [Hv Hnv].
  cbn [cnts_of map cnts_match hd tl]. split; [|split; [lia|auto]].
  rewrite Hc. unfold is_varying in Hv. destruct (pk p); cbn [kind_eqb] in Hv; try discriminate; reflexivity.
Qed.

Lemma cnts_match_nonneg L : forall fc cnts, cnts_match L fc cnts -> Forall (fun c => 0 <= c) cnts.
Proof.
  induction L as [|p L IH]; intros fc [|c cnts] H; try contradiction; constructor.
  - apply H.
  - apply (IH (tl fc)), H.
Qed.

Lemma fixed_counts_length L : forall fixed, length (fixed_counts L fixed) = length L.
Proof. induction L as [|p L IH]; intros fixed; cbn [fixed_counts length]; [reflexivity|]. destruct (is_fixed p); cbn [length]; f_equal; apply IH. Qed.

Lemma fixed_counts_nonneg L : forall fixed, Forall (fun c => 0 <= c) fixed ->
  Forall (fun c => 0 <= c) (fixed_counts L fixed).
Proof.
  induction L as [|p L IH]; intros fixed H; cbn [fixed_counts]; [constructor|].
  destruct (is_fixed p).
  - constructor; [destruct H; cbn; lia|]. apply IH. destruct H; cbn; auto.
  - constructor; [lia|]. apply IH; auto.
Qed.

Lemma counts_match L : forall fixed, Forall (fun c => 0 <= c) (fixed_counts L fixed) ->
  cnts_match L (fixed_counts L fixed) (counts L fixed []).
Proof.
  induction L as [|p L IH]; intros fixed Hfc; [exact I|]. cbn [counts fixed_counts] in *.
  unfold is_fixed in *. destruct (pk p) eqn:Hk; cbn [kind_eqb cnts_match hd tl] in *; rewrite Hk; inversion Hfc; subst.
  all: split; [reflexivity|split; [lia|apply IH; assumption]].
Qed.

(* C05, exact footprint: an element of a list without VaryingSize parameter occupies exactly [size]
   bytes, and the stride is the least multiple of the storage alignment >= size *)
Theorem esize_exact L fixed t a : wf_plist L = true -> has_varying L = false ->
  tuple_ok L (fixed_counts L fixed) 0 t -> 0 <= a -> (SA L | a) ->
  elem_end L a t = a + fst (esize L fixed) /\
  snd (esize L fixed) = align_up (fst (esize L fixed)) (SA L).
Proof.
  intros Hwf Hnv Ht Ha HaS.
  destruct (esize_spec L Hwf Hnv fixed (cnts_of t) a) as [E1 E2]; auto.
  { eapply tuple_ok_cnts_match; eauto. }
  unfold elem_end. rewrite E2, E1. split; [lia|reflexivity].
Qed.

(* the same without an element at hand, through the canonical counts at address 0 *)
Lemma esize_canon L fixed : wf_plist L = true -> has_varying L = false ->
  Forall (fun c => 0 <= c) (fixed_counts L fixed) ->
  let e := snd (place L (counts L fixed []) 0) in
  0 <= e /\ fst (esize L fixed) = e /\ snd (esize L fixed) = align_up e (SA L).
Proof.
  intros Hwf Hnv Hfc. pose proof (counts_match L fixed Hfc) as Hm.
  destruct (esize_spec L Hwf Hnv fixed _ 0 Hm (Z.le_refl 0) (Z.divide_0_r _)) as [E1 E2].
  rewrite Z.sub_0_r in E1, E2. split; [|split; assumption].
  apply place_from_end_ge; [apply wf_plist_Forall; exact Hwf|eapply cnts_match_nonneg; exact Hm].
Qed.

Lemma esize_stride_align L fixed : wf_plist L = true -> has_varying L = false ->
  Forall (fun c => 0 <= c) (fixed_counts L fixed) ->
  snd (esize L fixed) = align_up (fst (esize L fixed)) (SA L).
Proof. intros Hwf Hnv Hfc. destruct (esize_canon L fixed Hwf Hnv Hfc) as (_ & -> & ->). reflexivity. Qed.

Corollary esize_size_le_stride L fixed : wf_plist L = true -> has_varying L = false ->
  Forall (fun c => 0 <= c) (fixed_counts L fixed) -> 0 <= fst (esize L fixed) <= snd (esize L fixed).
Proof.
  intros Hwf Hnv Hfc. destruct (esize_canon L fixed Hwf Hnv Hfc) as (H0 & -> & ->).
  split; [exact H0|apply align_up_ge, SA_pos, Hwf].
Qed.

Theorem esize_stride_ok L fixed : wf_plist L = true -> has_varying L = false ->
  Forall (fun c => 0 <= c) (fixed_counts L fixed) ->
  stride_ok L (fixed_counts L fixed) (snd (esize L fixed)).
Proof.
  intros Hwf Hnv Hfc. pose proof (SA_pos L Hwf) as HSp.
  pose proof (esize_size_le_stride L fixed Hwf Hnv Hfc) as Hle.
  pose proof (esize_stride_align L fixed Hwf Hnv Hfc) as Es.
  split; [lia|]. split; [rewrite Es; apply align_up_div; exact HSp|].
  intros t a Ht Ha HaS. destruct (esize_exact L fixed t a Hwf Hnv Ht Ha HaS) as [Ee _].
  pose proof (first_align_end L (cnts_of t) a Hwf (tuple_ok_cnt_ok L _ _ t Ht) Ha HaS) as (_ & _ & Efa).
  cbv zeta in Efa. fold (elem_end L a t) in Efa.
  rewrite Efa, Ee, Es, (Z.add_comm a), align_up_shift by auto. lia.
Qed.
