(* BaseLemmas.v — characterisation of the primitives of Base.v. *)
From Coq Require Import ZArith Lia Bool.
From Cntgs Require Import Base.
Local Open Scope Z_scope.

Lemma pow2_pos a : pow2 a -> 0 < a.
Proof. intros [k [Hk ->]]. apply Z.pow_pos_nonneg; lia. Qed.

Lemma pow2_1 : pow2 1.
Proof. exists 0. split; [lia|reflexivity]. Qed.

Lemma pow2_divide a b : pow2 a -> pow2 b -> a <= b -> (a | b).
Proof.
  intros [k [Hk ->]] [j [Hj ->]] Hle.
  assert (k <= j) by (apply (Z.pow_le_mono_r_iff 2); lia).
  exists (2 ^ (j - k)). rewrite <- Z.pow_add_r by lia. f_equal. lia.
Qed.

Lemma pow2_min a b : pow2 a -> pow2 b -> pow2 (Z.min a b).
Proof. intros; destruct (Z.min_spec a b) as [[_ ->]|[_ ->]]; assumption. Qed.
Lemma pow2_max a b : pow2 a -> pow2 b -> pow2 (Z.max a b).
Proof. intros; destruct (Z.max_spec a b) as [[_ ->]|[_ ->]]; assumption. Qed.
Lemma pow2_min_div_l a b : pow2 a -> pow2 b -> (Z.min a b | a).
Proof. intros Ha Hb. apply pow2_divide; auto using pow2_min. lia. Qed.
Lemma pow2_min_div_r a b : pow2 a -> pow2 b -> (Z.min a b | b).
Proof. intros Ha Hb. apply pow2_divide; auto using pow2_min. lia. Qed.
Lemma pow2_total a b : pow2 a -> pow2 b -> (a | b) \/ (b | a).
Proof. intros Ha Hb. destruct (Z.le_ge_cases a b); [left|right]; apply pow2_divide; auto. Qed.

Lemma mul_size_nonneg c s : 0 <= c -> 0 < s -> 0 <= c * s.
Proof. intros Hc Hs. apply Z.mul_nonneg_nonneg; [exact Hc|apply Z.lt_le_incl, Hs]. Qed.

Lemma lowbit_pos_spec p : exists k, 0 <= k /\ Zpos (lowbit_pos p) = 2 ^ k /\ (2 ^ k | Zpos p).
Proof.
  induction p as [p IH|p IH|].
  - exists 0. cbn [lowbit_pos]. split; [lia|]. split; [reflexivity|]. apply Z.divide_1_l.
  - destruct IH as [k [Hk [E D]]]. exists (k + 1). cbn [lowbit_pos].
    rewrite Pos2Z.inj_xO, E, (Pos2Z.inj_xO p), Z.pow_add_r by lia.
    split; [lia|]. split; [lia|].
    rewrite (Z.mul_comm (2^k)). apply Z.mul_divide_mono_l. exact D.
  - exists 0. split; [lia|]. split; [reflexivity|]. apply Z.divide_1_l.
Qed.

Lemma lowbit_0 : lowbit 0 = 0.
Proof. reflexivity. Qed.

Lemma lowbit_spec v : 0 < v -> pow2 (lowbit v) /\ (lowbit v | v).
Proof.
  intros Hv. destruct v as [|p|p]; try lia. cbn [lowbit].
  destruct (lowbit_pos_spec p) as [k [Hk [E D]]]. rewrite E. split; [exists k; auto|exact D].
Qed.

Lemma lowbit_nonneg v : 0 <= lowbit v.
Proof. destruct v; cbn [lowbit]; lia. Qed.

Lemma lowbit_le v : 0 < v -> lowbit v <= v.
Proof.
  intros Hv. destruct (lowbit_spec v Hv) as [Hp Hd]. apply Z.divide_pos_le; auto.
Qed.

Lemma pow2_cases a : pow2 a -> a = 1 \/ exists b, pow2 b /\ a = 2 * b.
Proof.
  intros [k [Hk ->]]. destruct (Z.eq_dec k 0) as [->|Hk0]; [left; reflexivity|right].
  exists (2 ^ (k - 1)). split; [exists (k - 1); split; [lia|reflexivity]|].
  rewrite <- Z.pow_succ_r by lia. f_equal. lia.
Qed.

Lemma lowbit_pos_max p : forall a, pow2 a -> (a | Zpos p) -> a <= Zpos (lowbit_pos p).
Proof.
  (* an odd number has no even divisor; halve both sides of an even one *)
  induction p as [p IH|p IH|]; intros a Ha [q Hq]; cbn [lowbit_pos];
    destruct (pow2_cases a Ha) as [->|(b & Hb & ->)]; try lia.
  rewrite (Pos2Z.inj_xO (lowbit_pos p)). rewrite (Pos2Z.inj_xO p) in Hq.
  specialize (IH b Hb ltac:(exists q; lia)). lia.
Qed.

Lemma lowbit_max v a : 0 < v -> pow2 a -> (a | v) -> a <= lowbit v.
Proof. intros Hv Ha Hd. destruct v as [|p|p]; try lia. apply lowbit_pos_max; auto. Qed.

Lemma is_pow2b_spec a : is_pow2b a = true -> pow2 a.
Proof.
  destruct a as [|p|p]; cbn [is_pow2b]; try discriminate.
  intros H. apply Pos.eqb_eq in H. destruct (lowbit_pos_spec p) as [k [Hk [E _]]].
  exists k. split; auto. rewrite <- E, H. reflexivity.
Qed.

Lemma align_up_div x a : 0 < a -> (a | align_up x a).
Proof. intros Ha. unfold align_up. apply Z.divide_factor_r. Qed.

Lemma align_up_ge x a : 0 < a -> x <= align_up x a < x + a.
Proof.
  intros Ha. unfold align_up.
  pose proof (Z.div_mod (x + a - 1) a ltac:(lia)) as Hdm.
  pose proof (Z.mod_pos_bound (x + a - 1) a Ha) as Hb.
  rewrite (Z.mul_comm _ a). lia.
Qed.

Lemma align_up_unique x a y : 0 < a -> (a | y) -> x <= y < x + a -> y = align_up x a.
Proof.
  intros Ha [q Hq] Hy.
  destruct (align_up_div x a Ha) as [r Hr]. pose proof (align_up_ge x a Ha).
  assert (q = r) by nia. subst. lia.
Qed.

Lemma align_up_shift x a b : 0 < a -> (a | b) -> align_up (x + b) a = align_up x a + b.
Proof.
  intros Ha Hab. symmetry. apply align_up_unique; auto.
  - apply Z.divide_add_r; [apply align_up_div; auto | auto].
  - pose proof (align_up_ge x a Ha). lia.
Qed.

Lemma align_up_id x a : 0 < a -> (a | x) -> align_up x a = x.
Proof. intros Ha Hd. symmetry. apply align_up_unique; auto. lia. Qed.

Lemma align_up_1 x : align_up x 1 = x.
Proof. apply align_up_id; [lia|apply Z.divide_1_l]. Qed.

Lemma align_up_mono x y a : 0 < a -> x <= y -> align_up x a <= align_up y a.
Proof.
  intros Ha Hxy. unfold align_up. apply Z.mul_le_mono_nonneg_r; [lia|].
  apply Z.div_le_mono; lia.
Qed.

Lemma align_up_least x a y : 0 < a -> (a | y) -> x <= y -> align_up x a <= y.
Proof.
  intros Ha Hd Hxy. rewrite <- (align_up_id y a Ha Hd). apply align_up_mono; auto.
Qed.

Lemma align_up_congr x y a b : pow2 a -> pow2 b -> a <= b -> (b | x - y) ->
  align_up x a - align_up y a = x - y.
Proof.
  intros Ha Hb Hle [q Hq]. replace x with (y + q * b) by lia.
  rewrite align_up_shift; [lia|apply pow2_pos; exact Ha|].
  apply Z.divide_mul_r, pow2_divide; auto.
Qed.

Lemma tr_align_pow2 s a : 0 < s -> pow2 a -> pow2 (tr_align s a).
Proof. intros Hs Ha. apply pow2_min; [apply lowbit_spec; exact Hs|exact Ha]. Qed.

(* the trailing alignment of [s] bytes behind an [a]-aligned address divides every address
   that many bytes (or a multiple) further on *)
Lemma tr_align_div s a x y : 0 < s -> pow2 a -> (a | x) -> (s | y) -> (tr_align s a | x + y).
Proof.
  intros Hs Ha Hx Hy. destruct (lowbit_spec s Hs) as [Hl Hd]. apply Z.divide_add_r.
  - eapply Z.divide_trans; [apply pow2_min_div_r; auto|exact Hx].
  - eapply Z.divide_trans; [apply pow2_min_div_l; auto|]. eapply Z.divide_trans; [exact Hd|exact Hy].
Qed.

(* [v & -v] over Z: what [lowbit64] computes when nothing wraps; it is the lowest set bit,
   bit by bit along the binary representation ([Lnd_lowbit]) *)
Definition Lnd (v : Z) := Z.land v (- v).

Lemma Lnd_even v : Lnd (2 * v) = 2 * Lnd v.
Proof.
  unfold Lnd. replace (- (2 * v)) with (2 * - v) by lia.
  rewrite !(Z.mul_comm 2). change 2 with (2 ^ 1). rewrite <- !Z.shiftl_mul_pow2 by lia.
  symmetry. apply Z.shiftl_land.
Qed.

Lemma Lnd_odd v : Lnd (2 * v + 1) = 1.
Proof.
  unfold Lnd. replace (- (2 * v + 1)) with (2 * (- v - 1) + 1) by lia.
  apply Z.bits_inj'. intros n Hn.
  destruct (Z.eq_dec n 0) as [->|Hn0].
  - rewrite Z.land_spec, !Z.testbit_odd_0. reflexivity.
  - replace n with (Z.succ (n - 1)) by lia.
    rewrite Z.land_spec, !Z.testbit_odd_succ by lia.
    replace (- v - 1) with (Z.lnot v) by (unfold Z.lnot; lia).
    rewrite Z.lnot_spec by lia. rewrite andb_negb_r.
    change 1 with (2 * 0 + 1). rewrite Z.testbit_odd_succ by lia. now rewrite Z.testbit_0_l.
Qed.

Lemma Lnd_lowbit p : Lnd (Zpos p) = Zpos (lowbit_pos p).
Proof.
  induction p as [p IH|p IH|].
  - rewrite Pos2Z.inj_xI, Lnd_odd. reflexivity.
  - rewrite Pos2Z.inj_xO, Lnd_even, IH. reflexivity.
  - reflexivity.
Qed.

Lemma lowbit64_Lnd v : 0 <= v < W -> lowbit64 v = Lnd v.
Proof.
  intros Hv. unfold lowbit64, Lnd, wrap. replace (Z.lnot v + 1) with (- v) by (unfold Z.lnot; lia).
  unfold W. rewrite <- Z.land_ones by lia.
  rewrite (Z.land_comm (- v) (Z.ones 64)), Z.land_assoc. rewrite Z.land_ones by lia.
  rewrite (Z.mod_small v) by (unfold W in Hv; lia). reflexivity.
Qed.

(* the expressions as written in the C++ source agree with [lowbit] / [align_up] while
   nothing overflows 64 bits *)
Theorem lowbit64_spec v : 0 <= v < W -> lowbit64 v = lowbit v.
Proof.
  intros Hv. rewrite lowbit64_Lnd by exact Hv.
  destruct v as [|p|p]; [reflexivity| apply Lnd_lowbit | lia].
Qed.

(* the mask is -2^k modulo 2^64; and-ing with it clears the k low bits: divide, multiply *)
Theorem align64_spec pos k : 0 <= k < 62 -> 0 <= pos < 2^62 ->
  align64 pos (2^k) = align_up pos (2^k).
Proof.
  intros Hk Hpos. assert (Hp : 0 < 2^k) by (apply Z.pow_pos_nonneg; lia).
  assert (Hle : 2^k <= 2^61) by (apply Z.pow_le_mono_r; lia).
  assert (Hx : 0 <= pos - 1 + 2^k < 2^64).
  { change (2^64) with (8 * 2^61). change (2^62) with (2 * 2^61) in Hpos. lia. }
  unfold align64, align_up, wrap, W.
  rewrite (Z.mod_small (pos - 1 + 2^k)) by exact Hx.
  replace (2^k * (2^64 - 1)) with (- 2^k + 2^k * 2^64) by lia. rewrite Z_mod_plus_full.
  rewrite <- Z.land_ones by lia.
  rewrite (Z.land_comm (-2^k)), Z.land_assoc, Z.land_ones, Z.mod_small by (exact Hx || lia).
  replace (- 2^k) with (Z.lnot (Z.ones k)) by (rewrite Z.ones_equiv; unfold Z.lnot; lia).
  rewrite <- Z.ldiff_land, Z.ldiff_ones_r, Z.shiftr_div_pow2, Z.shiftl_mul_pow2 by lia.
  f_equal. f_equal. lia.
Qed.
