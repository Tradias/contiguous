(* SwapThm.v — swap(a, b) between two element references of equal field sizes in different
   vectors leaves each element holding the tuple the other one held and changes nothing outside
   the two extents (C11), for every parameter list and every shape of the run table.  The swap
   instance of the transfer argument of AssignThm.v: a step of ElementTraits::swap exchanges the
   two blocks of its run. *)
From Coq Require Import ZArith List Lia.
From Cntgs Require Import Layout Mem MemLemmas Vector Proxy Spec Rep ElemLemmas ElemThm AssignThm.
Import ListNotations.
Local Open Scope Z_scope.

(* the swap of one object of a MANUAL field; swap_objs is its fold *)
Definition swap_obj (p : param) (xb yb : nat) (x : mm) (ad : Z * Z) : mm * list ev :=
  let '(xa, ya) := ad in
  let sz := Z.to_nat (psz p) in
  (wr_d (wr_s x xa (mread (m_d x) ya sz)) ya (mread (m_s x) xa sz),
   match pty p with TTrk | TSw => [ESwapO xb xa (psz p) yb ya] | _ => [] end).

Lemma swap_objs_steps p xb yb : forall n x xa ya,
  swap_objs p xb yb x xa ya n = steps (swap_obj p xb yb) x (addrs (psz p) xa ya n).
Proof.
  induction n as [|n IH]; intros x xa ya; cbn [swap_objs addrs steps swap_obj]; [reflexivity|].
  rewrite IH. reflexivity.
Qed.

Lemma swap_objs_spec p xb yb : 0 < psz p -> forall n x xa ya, m_same x = false ->
  let x' := fst (swap_objs p xb yb x xa ya n) in
  m_same x' = false /\
  (forall y, m_s x' y = if inr xa (Z.of_nat n * psz p) y then m_d x (y - xa + ya) else m_s x y) /\
  (forall y, m_d x' y = if inr ya (Z.of_nat n * psz p) y then m_s x (y - ya + xa) else m_d x y).
Proof.
  intros Hp n x xa ya. rewrite swap_objs_steps.
  apply (blocks_spec (swap_obj p xb yb) (psz p) true (fun v => v) (Z.lt_le_incl _ _ Hp)).
  intros x' a b Hs. pose proof (swap_block x' a b (Z.to_nat (psz p)) Hs) as H.
  rewrite Z2Nat.id in H by lia. exact H.
Qed.

(* one step of ElementTraits::swap, on any two field tables *)
Lemma swap_one_gen L xb yb flx fly x k : 0 < psz (nth k L pparam0) -> m_same x = false ->
  let xa := fst (nth k flx fld0) in
  let ya := fst (nth k fly fld0) in
  let n := fl_step_len L (runs_swp L) flx k in
  let x' := fst (swap_one L xb yb flx fly x k) in
  m_same x' = false /\
  (forall y, m_s x' y = if inr xa n y then m_d x (y - xa + ya) else m_s x y) /\
  (forall y, m_d x' y = if inr ya n y then m_s x (y - ya + xa) else m_d x y).
Proof.
  intros Hp Hs. unfold swap_one, fl_step_len. destruct (nth k (runs_swp L) RSkip) as [| |e]; cbv zeta; cbn [fst].
  - split; [exact Hs|]. split; intros y; rewrite inr_empty by lia; reflexivity.
  - exact (swap_objs_spec _ xb yb Hp _ x _ _ Hs).
  - exact (swap_block x _ _ _ Hs).
Qed.

Section Swap.
  Variable L : list param.
  Hypothesis Hwf : wf_plist L = true.
  Variables (tx ty : tuple) (fcx fcy : list Z).
  Hypothesis Htx : tuple_ok L fcx 0 tx.
  Hypothesis Hty : tuple_ok L fcy 0 ty.
  Hypothesis Hcn : cnts_of ty = cnts_of tx.          (* equal field sizes *)
  Variables (mx my : mem) (xa ya : Z).
  Hypothesis Hxa : 0 <= xa /\ (SA L | xa).
  Hypothesis Hya : 0 <= ya /\ (SA L | ya).
  Hypothesis Hex : elem_at L mx xa tx.
  Hypothesis Hey : elem_at L my ya ty.

  Let cn := cnts_of tx.
  Let Ax := fst (place L cn xa).
  Let Ay := fst (place L cn ya).
  Let n := length L.
  Let R := runs_swp L.

  (* number of bytes step k handles, and its block in either element: AssignThm.step_len and
     in_step at this table, by conversion ([rx] is [in_step R L cn Ax Ax], [ry] is
     [in_step R L cn Ax Ay]).  Outside the section they take L tx xa (ry: and ya) in front. *)
  Definition slen (k : nat) : Z :=
    match nth k R RSkip with
    | RSkip => 0
    | RManual => nth k cn 0 * psz (nth k L pparam0)
    | REnd e => nth e Ax 0 + nth e cn 0 * psz (nth e L pparam0) - nth k Ax 0
    end.
  Definition rx (k : nat) (y : Z) : bool := inr (nth k Ax 0) (slen k) y.
  Definition ry (k : nat) (y : Z) : bool := inr (nth k Ay 0) (slen k) y.

  Let flx := ref_fl L tx xa.
  Let fly := ref_fl L ty ya.

  Lemma swap_one_spec xb yb x k : (k < n)%nat -> m_same x = false ->
    let x' := fst (swap_one L xb yb flx fly x k) in
    m_same x' = false /\
    (forall y, m_s x' y = if rx k y then m_d x (y - xa + ya) else m_s x y) /\
    (forall y, m_d x' y = if ry k y then m_s x (y - ya + xa) else m_d x y).
  Proof using Hwf Htx Hty Hcn Hxa Hya.
    intros Hk Hs. unfold flx, fly. rewrite (ref_fl_cnts L tx ty ya Hcn).
    pose proof (swap_one_gen L xb yb (ref_fl L tx xa) (ref_fl L tx ya) x k (psz_pos L Hwf k Hk) Hs) as H.
    cbv zeta in H. unfold runs_swp in H.
    rewrite (fl_step_len_ref L Hwf tx fcx Htx xa tswp k Hk), !(nth_fl L _ tx fcx Htx k Hk) in H. cbn [fst] in H.
    pose proof (Ay_Ax L Hwf tx fcx Htx xa ya Hxa Hya k Hk) as Hsh. fold cn Ax Ay in H, Hsh.
    destruct H as (H1 & H2 & H3). split; [exact H1|].
    split; intros y; [rewrite H2|rewrite H3]; unfold rx, ry, slen; (destruct (inr _ _ y); [|reflexivity]); f_equal; lia.
  Qed.

  Lemma range_below k' k y : (k' < k)%nat -> (k < n)%nat -> rx k y = true -> rx k' y = false.
  Proof using Hwf Htx. exact (step_below L Hwf tx fcx Htx xa tswp k' k y). Qed.

  Lemma swap_all_spec xb yb : forall m k0 x, (k0 + m <= n)%nat -> m_same x = false ->
    (forall y, m_s x y = if existsb (fun k => rx k y) (seq 0 k0) then my (y - xa + ya) else mx y) ->
    (forall y, m_d x y = if existsb (fun k => ry k y) (seq 0 k0) then mx (y - ya + xa) else my y) ->
    let x' := fst (swap_all L xb yb flx fly x (seq k0 m)) in
    (forall y, m_s x' y = if existsb (fun k => rx k y) (seq 0 (k0 + m)) then my (y - xa + ya) else mx y) /\
    (forall y, m_d x' y = if existsb (fun k => ry k y) (seq 0 (k0 + m)) then mx (y - ya + xa) else my y).
  Proof using Hwf Htx Hty Hcn Hxa Hya.
    intros m k0 x. rewrite swap_all_steps.
    exact (transfer_all L Hwf tx fcx Htx xa ya tswp Hxa Hya _ rx (fun v => v) (fun _ _ H => H)
             (swap_one_spec xb yb) mx my m k0 x).
  Qed.

  (* swap(a, b), the references in different vectors *)
  Theorem ref_swap_exchanges xb yb :
    let x' := fst (swap_all L xb yb flx fly {| m_s := mx; m_d := my; m_same := false |} (seq 0 n)) in
    elem_at L (m_s x') xa ty /\ elem_at L (m_d x') ya tx /\
    (forall y, ~ (xa <= y < xa + (elem_end L xa tx - xa)) -> m_s x' y = mx y) /\
    (forall y, ~ (ya <= y < ya + (elem_end L xa tx - xa)) -> m_d x' y = my y).
  Proof using Hwf Htx Hty Hcn Hxa Hya Hex Hey.
    rewrite swap_all_steps.
    exact (exchange_elems L Hwf tx fcx Htx xa ya tswp Hxa Hya _ ty fcy mx my Hty Hcn (swap_one_spec xb yb) Hex Hey).
  Qed.
End Swap.
