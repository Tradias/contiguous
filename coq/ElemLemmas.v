(* ElemLemmas.v — one element in byte memory: store establishes it, load reads it back,
   it depends only on its own bytes, it survives translation by multiples of the
   storage alignment; where its fields lie and that it is nothing but its fields' bytes. *)
From Coq Require Import ZArith Lia List Bool.
From Cntgs Require Import BaseLemmas Layout LayoutThm Mem MemLemmas Vector Proxy Spec Rep.
Import ListNotations.
Local Open Scope Z_scope.

Lemma app_eq_len {A} (a b c d : list A) : length a = length c -> a ++ b = c ++ d -> a = c /\ b = d.
Proof.
  revert c. induction a as [|x a IH]; intros [|y c] Hl H; try discriminate; [auto|].
  cbn in *. inversion H; subst. destruct (IH c) as [-> ->]; auto.
Qed.

Definition objs_ok (p : param) (f : list (list Z)) : Prop :=
  Forall (fun o => length o = Z.to_nat (psz p)) f.

Lemma concat_length_objs p f : 0 < psz p -> objs_ok p f ->
  Z.of_nat (length (concat f)) = Z.of_nat (length f) * psz p.
Proof.
  intros Hs H. induction H as [|o f Ho _ IH]; [reflexivity|].
  cbn [concat length]. rewrite app_length, Nat2Z.inj_add, IH, Ho. rewrite Z2Nat.id by lia. lia.
Qed.

Lemma read_objs_concat m p f : 0 < psz p -> objs_ok p f -> forall a,
  mread m a (length (concat f)) = concat f ->
  read_objs m p (a, Z.of_nat (length f)) = f.
Proof.
  intros Hs H. unfold read_objs. cbn [fst snd]. rewrite Nat2Z.id.
  induction H as [|o f Ho Hf IH]; intros a Hr; [reflexivity|].
  cbn [concat length] in *. rewrite app_length, mread_app in Hr.
  apply app_eq_len in Hr; [|apply mread_length]. destruct Hr as [H1 H2].
  cbn [length seq map]. rewrite <- seq_shift, map_map. f_equal.
  - cbn. rewrite Z.add_0_r. rewrite <- Ho. exact H1.
  - rewrite <- (IH (a + Z.of_nat (length o)) H2) at 2.
    apply map_ext. intros j. f_equal. rewrite Ho, Z2Nat.id by lia. lia.
Qed.

Lemma tuple_ok_ind' (P : list param -> list Z -> Z -> tuple -> Prop) :
  (forall fc prevc, P [] fc prevc []) ->
  (forall p L c fc prevc f t, objs_ok p f ->
     Z.of_nat (length f) = match pk p with Plain => 1 | Fixed => c | Varying => prevc end ->
     tuple_ok L fc (dec (hd [] f)) t -> P L fc (dec (hd [] f)) t -> P (p :: L) (c :: fc) prevc (f :: t)) ->
  forall L fc prevc t, tuple_ok L fc prevc t -> P L fc prevc t.
Proof.
  intros H0 HS. induction L as [|p L IH]; intros fc prevc t H.
  - destruct t; [apply H0|destruct fc; contradiction].
  - destruct fc as [|c fc]; [contradiction|]. destruct t as [|f t]; [contradiction|].
    destruct H as (Ho & Hc & Ht). apply HS; auto.
Qed.

Lemma tuple_ok_cnt_ok L : forall fc prevc t,
  tuple_ok L fc prevc t -> Forall2 cnt_ok L (cnts_of t).
Proof.
  induction 1 as [|p L c fc prevc f t Ho Hc Ht IH] using tuple_ok_ind'; constructor; [|exact IH].
  split; [lia|]. intros Hk. rewrite Hk in Hc. exact Hc.
Qed.

Lemma tuple_ok_length L : forall fc prevc t, tuple_ok L fc prevc t -> length t = length L.
Proof. induction 1 using tuple_ok_ind'; cbn [length]; congruence. Qed.

Lemma cnts_of_nonneg t : Forall (fun c => 0 <= c) (cnts_of t).
Proof. unfold cnts_of. apply Forall_forall. intros c Hc. apply in_map_iff in Hc. destruct Hc as [f [<- _]]. lia. Qed.

(* store establishes the element (emplace_at) *)
Lemma store_from_spec L : forall pv vals bid m a fc prevc,
  Forall wfp L -> tuple_ok L fc prevc vals -> (length L <= length pv)%nat ->
  let r := store_from L pv vals bid m a in
  snd r = snd (place_from L pv (cnts_of vals) a) /\
  elem_from L pv (fst (fst r)) a vals /\
  (forall x, x < a \/ snd r <= x -> fst (fst r) x = m x) /\
  a <= snd r.
Proof.
  intros pv vals bid m a fc prevc Hwf Ht. revert pv m a Hwf.
  induction Ht as [|p L c fc prevc f t Ho Hc Ht IH] using tuple_ok_ind'; intros pv m a Hwf Hlen.
  - cbn. repeat split; auto. lia.
  - destruct pv as [|pt pv]; [cbn in Hlen; lia|]. inversion Hwf as [|? ? [Hs Hal] HwL]; subst.
    cbn [store_from cnts_of map elem_from]. fold (cnts_of t). rewrite place_from_cons.
    set (a' := align_if (pt <? pal p) (pal p) a).
    set (m1 := mwrite m a' (concat f)).
    specialize (IH pv m1 (a' + Z.of_nat (length f) * psz p) HwL ltac:(cbn in Hlen; lia)).
    cbv zeta in IH.
    destruct (store_from L pv t bid m1 (a' + Z.of_nat (length f) * psz p)) as [[m2 evs2] e].
    cbn [fst snd] in *. destruct IH as (He & Hel & Hfr & Hge).
    pose proof (align_if_ge (pt <? pal p) (pal p) a (pow2_pos _ Hal)) as Ha'. fold a' in Ha'.
    pose proof (concat_length_objs p f Hs Ho) as Hcl.
    repeat split; auto.
    + rewrite (mread_ext m2 m1).
      * apply mread_mwrite_same.
      * intros x Hx. apply Hfr. left. lia.
    + intros x Hx. rewrite Hfr by lia. unfold m1. apply mwrite_out. lia.
    + lia.
Qed.

Lemma elem_from_shift L : forall pv m m' a t fc prevc d,
  Forall wfp L -> tuple_ok L fc prevc t -> (forall p, In p L -> (pal p | d)) ->
  (forall x, a <= x < snd (place_from L pv (cnts_of t) a) -> m' (x + d) = m x) ->
  elem_from L pv m a t -> elem_from L pv m' (a + d) t.
Proof.
  intros pv m m' a t fc prevc d Hwf Ht. revert pv a Hwf.
  induction Ht as [|p L c fc prevc f t Ho Hc Ht IH] using tuple_ok_ind'; intros pv a Hwf Hd Hext H; [exact H|].
  destruct pv as [|pt pv]; [exact H|]. inversion Hwf as [|? ? [Hs Hal] HwL]; subst.
  pose proof (pow2_pos _ Hal) as Halp.
  cbn [elem_from cnts_of map] in *. fold (cnts_of t) in *.
  rewrite align_if_shift by auto using in_eq. rewrite place_from_cons in Hext. cbn [snd] in Hext.
  set (a' := align_if (pt <? pal p) (pal p) a) in *.
  pose proof (align_if_ge (pt <? pal p) (pal p) a Halp) as Ha'. fold a' in Ha'.
  pose proof (place_from_end_ge L pv (cnts_of t) (a' + Z.of_nat (length f) * psz p) HwL (cnts_of_nonneg t)) as Hge.
  pose proof (concat_length_objs p f Hs Ho) as Hcl.
  destruct H as [H1 H2]. split.
  - rewrite <- H1 at 2. apply mread_shift. intros x Hx. apply Hext. lia.
  - replace (a' + d + Z.of_nat (length f) * psz p) with (a' + Z.of_nat (length f) * psz p + d) by lia.
    apply IH; auto using in_cons. intros x Hx. apply Hext. lia.
Qed.

Lemma elem_from_ext L : forall pv m m' a t fc prevc,
  Forall wfp L -> tuple_ok L fc prevc t ->
  (forall x, a <= x < snd (place_from L pv (cnts_of t) a) -> m' x = m x) ->
  elem_from L pv m a t -> elem_from L pv m' a t.
Proof.
  intros pv m m' a t fc prevc Hwf Ht Hext H. rewrite <- (Z.add_0_r a).
  apply (elem_from_shift L pv m m' a t fc prevc 0 Hwf Ht); auto.
  - intros p _. apply Z.divide_0_r.
  - intros x Hx. rewrite Z.add_0_r. apply Hext, Hx.
Qed.

(* load reads the element back (load_element_at) *)
Lemma load_from_spec L : forall pv fc m a t prevc prevval isplain,
  Forall wfp L -> wf_varying isplain L = true ->
  (match L with p :: _ => pk p = Varying -> prevval = prevc | [] => True end) ->
  tuple_ok L fc prevc t -> elem_from L pv m a t ->
  load_from L pv fc m a prevval =
    (combine (fst (place_from L pv (cnts_of t) a)) (cnts_of t), snd (place_from L pv (cnts_of t) a)).
Proof.
  intros pv fc m a t prevc prevval isplain Hwf Hwv Hpv Ht. revert pv a prevval isplain Hwf Hwv Hpv.
  induction Ht as [|p L c fc prevc f t Ho Hc Ht IH] using tuple_ok_ind';
    intros pv a prevval isplain Hwf Hwv Hpv H; [reflexivity|].
  destruct pv as [|pt pv]; [contradiction|]. inversion Hwf as [|? ? [Hs Hal] HwL]; subst.
  cbn [wf_varying] in Hwv. apply andb_true_iff in Hwv. destruct Hwv as [Hv1 Hv2].
  cbn [elem_from] in H. destruct H as [H1 H2].
  cbn [load_from cnts_of map]. fold (cnts_of t). rewrite place_from_cons.
  set (a' := align_if (pt <? pal p) (pal p) a) in *.
  assert (Ec : (match pk p with Plain => 1 | Fixed => c | Varying => prevval end) = Z.of_nat (length f)).
  { rewrite Hc. destruct (pk p); auto. }
  rewrite Ec, (IH pv _ (dec (mread m a' (Z.to_nat (psz p)))) (is_plain p) HwL Hv2); auto.
  (* if the next parameter is varying, this one is plain: one object, read back exactly *)
  destruct L as [|q L']; [exact I|]. intros Hq.
  cbn [wf_varying] in Hv2. apply andb_true_iff in Hv2. destruct Hv2 as [Hv2 _].
  unfold is_varying in Hv2. rewrite Hq in Hv2. cbn [kind_eqb] in Hv2.
  unfold is_plain in Hv2. destruct (pk p) eqn:Hk; try discriminate.
  destruct f as [|o [|o' f']]; cbn [length] in Hc; try lia.
  cbn [hd]. inversion Ho as [|? ? Hol _]; subst.
  cbn [concat] in H1. rewrite app_nil_r in H1. rewrite <- Hol, H1. reflexivity.
Qed.

(* the tuple read back through load is the tuple stored *)
Lemma read_fields_spec L : forall pv m a t fc prevc,
  Forall wfp L -> tuple_ok L fc prevc t -> elem_from L pv m a t ->
  map (fun pa => read_objs m (fst pa) (snd pa))
      (combine L (combine (fst (place_from L pv (cnts_of t) a)) (cnts_of t))) = t.
Proof.
  intros pv m a t fc prevc Hwf Ht. revert pv a Hwf.
  induction Ht as [|p L c fc prevc f t Ho Hc Ht IH] using tuple_ok_ind'; intros pv a Hwf H; [reflexivity|].
  destruct pv as [|pt pv]; [contradiction|]. inversion Hwf as [|? ? [Hs Hal] HwL]; subst.
  cbn [elem_from] in H. destruct H as [H1 H2].
  cbn [cnts_of map]. fold (cnts_of t). rewrite place_from_cons. cbn [fst combine map].
  f_equal; [apply read_objs_concat; auto|apply IH; auto].
Qed.

(* the fields of an element: their number, their positions one after the other, their bytes *)
Lemma place_from_fst_length L : forall pv cnts a,
  (length L <= length pv)%nat -> length cnts = length L ->
  length (fst (place_from L pv cnts a)) = length L.
Proof.
  induction L as [|p L IH]; intros pv cnts a Hpv Hc; [reflexivity|].
  destruct pv as [|pt pv]; [inversion Hpv|]. destruct cnts as [|c cnts]; [discriminate|].
  apply le_S_n in Hpv. injection Hc as Hc. cbn [place_from].
  specialize (IH pv cnts (align_if (pt <? pal p) (pal p) a + c * psz p) Hpv Hc).
  destruct (place_from L pv cnts _) as [r e]. cbn [fst length] in *. rewrite IH. reflexivity.
Qed.

Lemma prevs_length_le L : (length L <= length (prevs L))%nat.
Proof. rewrite (prevs_length L). lia. Qed.

Lemma place_fst_length L cnts a : length cnts = length L -> length (fst (place L cnts a)) = length L.
Proof. intros Hc. apply place_from_fst_length; [apply prevs_length_le|exact Hc]. Qed.

Lemma place_from_nth_succ : forall L pv cnts a j,
  (S j < length L)%nat -> (length L <= length pv)%nat -> length cnts = length L ->
  let A := fst (place_from L pv cnts a) in
  nth (S j) A 0 =
    align_if (nth (S j) pv 0 <? pal (nth (S j) L pparam0)) (pal (nth (S j) L pparam0))
             (nth j A 0 + nth j cnts 0 * psz (nth j L pparam0)).
Proof.
  induction L as [|p L IH]; intros [|pt pv] [|c cnts] a j Hj Hpv Hc; cbn [length] in Hj, Hpv, Hc; try lia.
  cbv zeta. rewrite place_from_cons. cbn [fst]. destruct j as [|j]; cbn [nth]; [|apply IH; lia].
  (* field 1 follows field 0 *)
  destruct L as [|q L], pv as [|qt pv], cnts as [|d cnts]; cbn [length] in Hj, Hpv, Hc; try lia.
  rewrite place_from_cons. reflexivity.
Qed.

Lemma psz_pos L : wf_plist L = true -> forall j, (j < length L)%nat -> 0 < psz (nth j L pparam0).
Proof.
  intros Hwf j Hj. pose proof (wf_plist_Forall L Hwf) as HF. rewrite Forall_forall in HF.
  destruct (HF (nth j L pparam0)); [apply nth_In; exact Hj|assumption].
Qed.

Lemma cnts_length L t fc : tuple_ok L fc 0 t -> length (cnts_of t) = length L.
Proof. intros Ht. unfold cnts_of. rewrite map_length. eapply tuple_ok_length; eauto. Qed.

Lemma nth_cnts_of t j : nth j (cnts_of t) 0 = Z.of_nat (length (nth j t [])).
Proof.
  unfold cnts_of. revert j. induction t as [|f t IH]; intros [|j]; cbn [map nth length]; auto.
Qed.

Lemma tuple_ok_field : forall L fc prevc t j, tuple_ok L fc prevc t -> (j < length L)%nat ->
  objs_ok (nth j L pparam0) (nth j t []) /\
  (pk (nth j L pparam0) = Plain -> length (nth j t []) = 1%nat).
Proof.
  induction L as [|p L IH]; intros fc prevc t j H Hj; [cbn [length] in Hj; lia|].
  destruct fc as [|c fc]; [contradiction|]. destruct t as [|f t]; [contradiction|].
  destruct H as (Ho & Hc & Ht).
  destruct j as [|j]; cbn [nth].
  - split; [exact Ho|]. intros Hp. rewrite Hp in Hc. lia.
  - eapply IH; [exact Ht|cbn [length] in Hj; lia].
Qed.

Lemma field_len L t fc j : wf_plist L = true -> tuple_ok L fc 0 t -> (j < length L)%nat ->
  Z.of_nat (length (concat (nth j t []))) = nth j (cnts_of t) 0 * psz (nth j L pparam0).
Proof.
  intros Hwf Ht Hj. rewrite nth_cnts_of.
  apply concat_length_objs; [apply psz_pos; assumption|].
  exact (proj1 (tuple_ok_field L fc 0 t j Ht Hj)).
Qed.

Lemma elem_from_field : forall L pv m a t j,
  elem_from L pv m a t -> (j < length L)%nat ->
  mread m (nth j (fst (place_from L pv (cnts_of t) a)) 0) (length (concat (nth j t []))) = concat (nth j t []).
Proof.
  induction L as [|p L IH]; intros pv m a t j H Hj; [cbn [length] in Hj; lia|].
  destruct pv as [|pt pv]; [contradiction|]. destruct t as [|f t]; [contradiction|].
  cbn [elem_from] in H. destruct H as [H1 H2].
  cbn [cnts_of map]. fold (cnts_of t). rewrite place_from_cons. cbn [fst].
  destruct j as [|j]; cbn [nth]; [exact H1|].
  apply IH; [exact H2|cbn [length] in Hj; lia].
Qed.

Lemma elem_from_of_fields : forall L pv m a t,
  length t = length L -> (length L <= length pv)%nat ->
  (forall j, (j < length L)%nat ->
     mread m (nth j (fst (place_from L pv (cnts_of t) a)) 0) (length (concat (nth j t []))) = concat (nth j t [])) ->
  elem_from L pv m a t.
Proof.
  induction L as [|p L IH]; intros pv m a t Hl Hpv H.
  - destruct t; [exact I|discriminate].
  - destruct pv as [|pt pv]; [cbn [length] in Hpv; lia|]. destruct t as [|f t]; [discriminate|].
    cbn [elem_from]. cbn [cnts_of map] in H. fold (cnts_of t) in H. split.
    + specialize (H O ltac:(cbn [length]; lia)). rewrite place_from_cons in H. exact H.
    + apply IH; [cbn [length] in Hl; lia|cbn [length] in Hpv; lia|].
      intros j Hj. specialize (H (S j) ltac:(cbn [length]; lia)). rewrite place_from_cons in H. exact H.
Qed.

(* an element is its fields' bytes: a memory that agrees with [m] on the bytes of every field, at
   the same offsets from another start, holds the tuple there, whatever lies in the padding *)
Lemma elem_at_transfer L t fc m a m' a' : wf_plist L = true -> tuple_ok L fc 0 t -> elem_at L m a t ->
  (forall j i, (j < length L)%nat -> 0 <= i < nth j (cnts_of t) 0 * psz (nth j L pparam0) ->
     m' (nth j (fst (place L (cnts_of t) a')) 0 + i) = m (nth j (fst (place L (cnts_of t) a)) 0 + i)) ->
  elem_at L m' a' t.
Proof.
  intros Hwf Ht He H. apply elem_from_of_fields.
  - exact (tuple_ok_length L fc 0 t Ht).
  - exact (prevs_length_le L).
  - intros j Hj. rewrite <- (elem_from_field L (prevs L) m a t j He Hj) at 2.
    apply map_ext_in. intros i Hi. apply in_seq in Hi.
    apply (H j (Z.of_nat i) Hj). rewrite <- (field_len L t fc j Hwf Ht Hj). lia.
Qed.
