(* NtWorld.v — copy construction, copy assignment, move assignment (stealing and
   element-wise) for EVERY well-formed parameter list, non-trivial value types included
   (C09, C08): the target represents the source's list of tuples with the allocator the
   traits dictate; copies leave the source untouched; an element-wise move leaves the source
   with moved-from objects (only its memory differs).  Last: the block of a move-assigned
   vector (C02). *)
From Coq Require Import ZArith Lia List Bool.
From Cntgs Require Import Layout Mem Vector World Rep Refine StableThm WorldThm NtRefine.
Import ListNotations.
Local Open Scope Z_scope.

Lemma relocate_objs_copy_src p sbid bid : forall n ms m src dst,
  fst (fst (relocate_objs false p sbid bid ms m src dst n)) = ms.
Proof.
  induction n as [|n IH]; intros ms m src dst; [reflexivity|]. cbn [relocate_objs].
  specialize (IH ms (mwrite m dst (mread ms src (Z.to_nat (psz p)))) (src + psz p) (dst + psz p)).
  destruct (relocate_objs false p sbid bid ms _ (src + psz p) (dst + psz p) n) as [[a b] c]. exact IH.
Qed.

Lemma relocate_fields_copy_src sbid bid L : forall fl ms m d,
  fst (fst (relocate_fields false L fl sbid bid ms m d)) = ms.
Proof.
  induction L as [|p L IH]; intros fl ms m d; [reflexivity|]. destruct fl as [|[a c] fl]; [reflexivity|].
  cbn [relocate_fields]. destruct (ntc _ p).
  - pose proof (relocate_objs_copy_src p sbid bid (Z.to_nat c) ms m a (a + d)) as H.
    destruct (relocate_objs false p sbid bid ms m a (a + d) (Z.to_nat c)) as [[ms1 m1] e1]. cbn [fst] in H. subst ms1.
    specialize (IH fl ms m1 d). destruct (relocate_fields false L fl sbid bid ms m1 d) as [[a2 b2] c2]. exact IH.
  - specialize (IH fl ms m d). destruct (relocate_fields false L fl sbid bid ms m d) as [[a2 b2] c2]. exact IH.
Qed.

Lemma relocate_elems_copy_src L bid : forall n src m i,
  fst (fst (relocate_elems false L src bid m i n)) = src.
Proof.
  induction n as [|n IH]; intros src m i; [reflexivity|]. cbn [relocate_elems].
  pose proof (relocate_fields_copy_src (bidn (v_bid src)) bid L (fst (load L (v_fixed src) (v_mem src) (eaddr L src i))) (v_mem src) m 0) as H.
  destruct (relocate_fields false L _ (bidn (v_bid src)) bid (v_mem src) m 0) as [[ms1 m1] e1]. cbn [fst] in H. subst ms1.
  rewrite set_mem_id. specialize (IH src m1 (i + 1)).
  destruct (relocate_elems false L src bid m1 (i + 1) n) as [[a b] c]. exact IH.
Qed.

Lemma insert_into_copy_src L v bid junk : fst (fst (insert_into false false L v bid junk)) = v.
Proof.
  unfold insert_into. cbn [negb orb andb]. rewrite andb_true_r.
  destruct (all_ctriv _ L); [reflexivity|].
  pose proof (relocate_elems_copy_src L bid (Z.to_nat (vsize L v)) v (mcopy (v_mem v) 0 junk 0 (dend L v)) 0) as H.
  destruct (relocate_elems false L v bid _ 0 _) as [[s1 m1] e1]. exact H.
Qed.

Section NtWorld.
  Variable L : list param.
  Hypothesis Hwf : wf_plist L = true.

  Lemma insert_into_rep mv destr src l bid junk b u a tbid T : Rep L src l ->
    Rep L {| v_cap := v_cap src; v_bid := b; v_units := u; v_aid := a;
             v_mem := snd (fst (insert_into mv destr L src bid junk));
             v_fixed := v_fixed src; v_count := v_count src; v_stride := v_stride src;
             v_tbl := if has_varying L then tbl_relocate (v_tbl src) (v_cap src) tbid else T;
             v_last := v_last src |} l.
  Proof.
    intros [offs R]. apply (relocate_rep L Hwf); [exists offs; exact R|exact (r_cap _ _ _ _ R)|].
    exact (insert_into_mem L Hwf mv destr src l offs bid junk R).
  Qed.

  Theorem copy_ctor_spec_nt K src l junk nb :
    Rep L src l ->
    let '(d, src', evs, nb') := copy_ctor K L src junk nb in
    Rep L d l /\ src' = src /\ v_aid d = soccc K (v_aid src) /\
    v_cap d = v_cap src /\ v_fixed d = v_fixed src /\ v_bid d = Some nb.
  Proof.
    intros R. unfold copy_ctor.
    pose proof (fun b u a tbid T => insert_into_rep false false src l nb junk b u a tbid T R) as HR.
    pose proof (insert_into_copy_src L src nb junk) as Hs.
    destruct (insert_into false false L src nb junk) as [[s1 m] e1]. cbn [fst snd] in *.
    repeat split; auto.
  Qed.

  Theorem copy_assign_spec_nt K d src l junk nb :
    Rep L src l ->
    let '(d', src', evs, nb') := copy_assign K L d src junk nb in
    Rep L d' l /\ src' = src /\
    v_aid d' = (if pocca K then v_aid src else v_aid d) /\
    v_cap d' = v_cap src /\ v_fixed d' = v_fixed src.
  Proof.
    intros R. unfold copy_assign.
    pose proof (fun b u a tbid T => insert_into_rep false false src l nb junk b u a tbid T R) as HR.
    pose proof (insert_into_copy_src L src nb junk) as Hs.
    destruct (insert_into false false L src nb junk) as [[s1 m] e1]. cbn [fst snd] in *.
    destruct (if all_dtriv L then (d, []) else destruct_range L d 0 (Z.to_nat (vsize L d))) as [d1 e2].
    repeat split; auto.
  Qed.

  Theorem steal_spec_nt K d src l :
    Rep L src l ->
    let '(d', src', evs) := steal K L d src in
    Rep L d' l /\ src' = moved_from src /\ v_bid d' = v_bid src /\
    v_aid d' = (if pocma K then v_aid src else v_aid d).
  Proof.
    intros R. unfold steal.
    destruct (if all_dtriv L then (d, []) else destruct_range L d 0 (Z.to_nat (vsize L d))) as [d1 e1].
    split; [apply rep_retag; exact R|]. auto.
  Qed.

  Lemma move_assign_rep K d src l junk nb :
    Rep L src l ->
    let '(d', src', evs, nb') := move_assign K L d src junk nb in
    Rep L d' l /\
    v_aid d' = (if pocma K then v_aid src else v_aid d) /\
    (src' = moved_from src \/ exists bid jk, src' = fst (fst (insert_into true false L src bid jk))).
  Proof.
    intros R. unfold move_assign.
    destruct (always_eq K || pocma K || (v_aid d =? v_aid src)) eqn:Hc.
    - pose proof (steal_spec_nt K d src l R) as Hs. destruct (steal K L d src) as [[d1 s1] e].
      destruct Hs as (H1 & H2 & H3 & H4). auto.
    - assert (Hpm : pocma K = false).
      { destruct (pocma K); [rewrite orb_true_r in Hc; discriminate|reflexivity]. }
      rewrite Hpm.
      destruct (consumption L d <? consumption L src);
        destruct (if all_dtriv L then (d, []) else destruct_range L d 0 (Z.to_nat (vsize L d))) as [d1 e1].
      + pose proof (fun b u a tbid T => insert_into_rep true false src l nb junk b u a tbid T R) as HR.
        destruct (insert_into true false L src nb junk) as [[s1 m] e2] eqn:E. cbn [fst snd] in *.
        split; [apply HR|]. split; [reflexivity|]. right. exists nb, junk. rewrite E. reflexivity.
      + pose proof (fun b u a tbid T => insert_into_rep true false src l (bidn (v_bid d1)) (v_mem d1) b u a tbid T R) as HR.
        destruct (insert_into true false L src (bidn (v_bid d1)) (v_mem d1)) as [[s1 m] e2] eqn:E. cbn [fst snd] in *.
        split; [apply HR|]. split; [reflexivity|]. right. exists (bidn (v_bid d1)), (v_mem d1). rewrite E. reflexivity.
  Qed.

  (* the source is moved-from or keeps its block, with moved-from objects in it *)
  Theorem move_assign_spec_nt K d src l junk nb :
    Rep L src l ->
    let '(d', src', evs, nb') := move_assign K L d src junk nb in
    Rep L d' l /\
    v_aid d' = (if pocma K then v_aid src else v_aid d) /\
    (src' = moved_from src \/ exists ms, src' = set_mem src ms).
  Proof.
    intros R. pose proof (move_assign_rep K d src l junk nb R) as H.
    destruct (move_assign K L d src junk nb) as [[[d' src'] evs] nb']. destruct H as (H1 & H2 & [H3|(bid & jk & ->)]).
    - auto.
    - split; [exact H1|]. split; [exact H2|]. right. apply insert_into_frame.
  Qed.
End NtWorld.

(* on a trivially relocatable list the element-wise move is a byte copy: the source stays as it was *)
Theorem move_assign_spec L (Hwf : wf_plist L = true) (Htriv : all_triv L = true) K d src l junk nb :
  Rep L src l ->
  let '(d', src', evs, nb') := move_assign K L d src junk nb in
  Rep L d' l /\
  v_aid d' = (if pocma K then v_aid src else v_aid d) /\
  (src' = moved_from src \/ src' = src).
Proof.
  intros R. pose proof (move_assign_rep L Hwf K d src l junk nb R) as H.
  destruct (move_assign K L d src junk nb) as [[[d' src'] evs] nb']. destruct H as (H1 & H2 & [H3|(bid & jk & ->)]).
  - auto.
  - rewrite (insert_into_triv L Htriv). auto.
Qed.

(* C02, assignment clause: the block the target owns afterwards - stolen, freshly allocated or its
   own one reused - has at least the bytes of the source's block.  The reuse branch is the one
   that rests on the comparison of BLOCK sizes (not of the bytes in use).  0 <= v_units src is
   needed for the fresh block only: it gets consumption (bytes) as its unit count, SA times the
   source's units. *)
Theorem move_assign_block_suffices K L d src junk nb : 0 < SA L -> 0 <= v_units src ->
  let '(d', _, _, _) := move_assign K L d src junk nb in
  v_cap d' = v_cap src /\ consumption L src <= consumption L d'.
Proof.
  intros HSA Hu. unfold move_assign.
  destruct (always_eq K || pocma K || (v_aid d =? v_aid src)).
  - unfold steal. destruct (if all_dtriv L then _ else _) as [d1 e1].
    unfold consumption. cbn [v_cap v_units]. split; [reflexivity|lia].
  - destruct (destruct_opt_quiet L (all_dtriv L) (Z.to_nat (vsize L d)) d 0) as [_ (_ & _ & Hk & _)].
    destruct (if all_dtriv L then (d, []) else destruct_range L d 0 (Z.to_nat (vsize L d))) as [d1 e1]. cbn [fst] in Hk.
    destruct (consumption L d <? consumption L src) eqn:E.
    + destruct (insert_into true false L src nb junk) as [[src1 m] e2].
      unfold consumption. cbn [v_cap v_units]. split; [reflexivity|]. clear -HSA Hu. nia.
    + apply Z.ltb_ge in E. destruct (insert_into true false L src (bidn (v_bid d1)) (v_mem d1)) as [[src1 m] e2].
      unfold consumption in *. cbn [v_cap v_units]. split; [reflexivity|]. rewrite Hk. exact E.
Qed.
