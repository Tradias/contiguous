(* C04 — fields and elements are laid out in order, inside their element, without overlap. *)
From Coq Require Import ZArith List.
From Cntgs Require Import Layout LayoutThm Vector Proxy Spec Rep Refine NtRefine LayoutHist.
Import ListNotations.
Local Open Scope Z_scope.

(* The byte extents [x_k, x_k + cnt_k * sizeof T_k) of the fields of one element, in
   parameter order, are ordered and pairwise disjoint and lie inside
   [element start, element end) = [ref.data_begin(), ref.data_end()). *)
Theorem C04_fields_ordered_disjoint_inside : forall L cnts a,
  wf_plist L = true -> Forall2 cnt_ok L cnts -> 0 <= a -> (SA L | a) ->
  ordered_from a (extents L cnts (fst (place L cnts a))) (snd (place L cnts a)).
Proof. exact place_ordered. Qed.
Print Assumptions C04_fields_ordered_disjoint_inside.

(* data_begin() of a reference (address of its first field) is the element's address,
   which is what iterator.data() returns *)
Theorem C04_first_field_at_element_start : forall L cnts a,
  wf_plist L = true -> Forall2 cnt_ok L cnts -> 0 <= a -> (SA L | a) ->
  hd a (fst (place L cnts a)) = a.
Proof. exact place_first. Qed.
Print Assumptions C04_first_field_at_element_start.

Example C04_example :
  let L := [ {| pk := Fixed; psz := 3; pal := 2; pty := TBlob |};
             {| pk := Plain; psz := 2; pal := 8; pty := TUInt |};
             {| pk := Varying; psz := 5; pal := 4; pty := TBlob |} ] in
  wf_plist L = true /\
  extents L [2; 1; 3] (fst (place L [2; 1; 3] 16)) = [(16, 22); (24, 26); (28, 43)] /\
  snd (place L [2; 1; 3] 16) = 43.
Proof. vm_compute. repeat split; reflexivity. Qed.

(* ---------- vector level: what the library computes when element i is accessed ----------
   The statement of C03_represented_states, read for C04: in EVERY represented state the
   field table loaded for element i gives every field exactly the object count of the stored
   tuple, the first field starts at the element start, the byte extents of the fields are
   ordered, disjoint and inside the element, and the element ends before data_end() and
   before every later element starts. *)
Theorem C04_represented_states : forall L, wf_plist L = true -> forall v l offs, RepO L v l offs ->
  forall i, (i < length l)%nat ->
    let t := nth i l [] in
    let a := eaddr L v (Z.of_nat i) in
    let fl := vfl L v (Z.of_nat i) in
    0 <= a /\ (SA L | a) /\
    Forall2 (fun p x => (pal p | x)) L (map fst fl) /\
    map snd fl = cnts_of t /\
    hd a (map fst fl) = a /\
    ordered_from a (extents L (cnts_of t) (map fst fl)) (elem_end L a t) /\
    elem_end L a t <= dend L v /\
    (forall k, (i < k < length l)%nat -> elem_end L a t <= eaddr L v (Z.of_nat k)).
Proof. exact rep_element_layout. Qed.
Print Assumptions C04_represented_states.

(* ... hence after EVERY valid history of emplace_back / pop_back / erase / clear / reserve from
   construction, for every well-formed list (erase with elements behind the erased ones on
   trivially relocatable lists and on lists without a VaryingSize parameter,
   NtRefine.nt_hist_okx) *)
Theorem C04_every_history : forall L cap budget fixed aid junk bid tbid h,
  wf_plist L = true -> 0 <= cap -> Forall (fun c => 0 <= c) fixed ->
  let v0 := fst (mkvec L cap budget fixed aid junk bid tbid) in
  let s0 := {| s_cap := cap; s_elems := [] |} in
  shist_valid L (fixed_counts L fixed) s0 h -> nt_hist_okx L s0 h ->
  let v := vrun L junk v0 h in
  let l := s_elems (srun s0 h) in
  forall i, (i < length l)%nat ->
    let t := nth i l [] in
    let a := eaddr L v (Z.of_nat i) in
    let fl := vfl L v (Z.of_nat i) in
    0 <= a /\ (SA L | a) /\
    Forall2 (fun p x => (pal p | x)) L (map fst fl) /\
    map snd fl = cnts_of t /\
    hd a (map fst fl) = a /\
    ordered_from a (extents L (cnts_of t) (map fst fl)) (elem_end L a t) /\
    elem_end L a t <= dend L v /\
    (forall k, (i < k < length l)%nat -> elem_end L a t <= eaddr L v (Z.of_nat k)).
Proof. exact layout_every_history. Qed.
Print Assumptions C04_every_history.
