(* CompareThm.v — laws of the modelled comparison operators (Proxy.v) that hold for every
   parameter list and arbitrary memory contents (C13, C14): == is reflexive and symmetric, the
   element-level < a strict partial order, the orders on objects and fields strict weak orders. *)
From Coq Require Import ZArith List Bool Lia.
From Cntgs Require Import ListAux Layout Mem MemLemmas Vector Proxy RunsThm.
Import ListNotations.
Local Open Scope Z_scope.

Lemma Z_nat_leb n i : (Z.of_nat n <=? Z.of_nat i) = (n <=? i)%nat.
Proof. destruct (Nat.leb_spec n i); [apply Z.leb_le|apply Z.leb_gt]; lia. Qed.
Lemma Z_nat_ltb n i : (Z.of_nat n <? Z.of_nat i) = (n <? i)%nat.
Proof. destruct (Nat.ltb_spec n i); [apply Z.ltb_lt|apply Z.ltb_ge]; lia. Qed.

Section Lex.
  Variable A : Type.
  Variable lt : A -> A -> bool.
  Definition irrefl := forall a, lt a a = false.
  Definition trans := forall a b c, lt a b = true -> lt b c = true -> lt a c = true.
  (* negative transitivity: incomparability is transitive *)
  Definition ntrans := forall a b c, lt a b = false -> lt b c = false -> lt a c = false.

  Fixpoint lexb (a b : list A) : bool :=
    match a, b with
    | _, [] => false
    | [], _ :: _ => true
    | x :: a', y :: b' => if lt x y then true else if lt y x then false else lexb a' b'
    end.

  Hypothesis Hi : irrefl.
  Hypothesis Ht : trans.
  Hypothesis Hn : ntrans.

  Lemma lt_asym a b : lt a b = true -> lt b a = false.
  Proof.
    intros H. destruct (lt b a) eqn:E; [|reflexivity].
    pose proof (Ht _ _ _ H E) as H1. rewrite Hi in H1. discriminate.
  Qed.

  Lemma lexb_irrefl : forall a, lexb a a = false.
  Proof. induction a as [|x a IH]; cbn [lexb]; [reflexivity|]. rewrite Hi. exact IH. Qed.

  (* asymmetry of the loop needs asymmetry of the element order only *)
  Lemma lexb_asym_of : (forall a b, lt a b = true -> lt b a = false) ->
    forall a b, lexb a b = true -> lexb b a = false.
  Proof.
    intros Ha. induction a as [|x a IH]; intros [|y b]; cbn [lexb]; try congruence.
    destruct (lt x y) eqn:Exy.
    - intros _. rewrite (Ha _ _ Exy). reflexivity.
    - destruct (lt y x) eqn:Eyx; [congruence|]. apply IH.
  Qed.

  Lemma lexb_ntrans : forall a b c, lexb a b = false -> lexb b c = false -> lexb a c = false.
  Proof.
    induction a as [|x a IH]; intros [|y b] [|z c]; cbn [lexb]; try congruence.
    destruct (lt x y) eqn:Exy; [congruence|]. destruct (lt y z) eqn:Eyz; [congruence|].
    rewrite (Hn _ _ _ Exy Eyz). destruct (lt z x) eqn:Ezx; [reflexivity|].
    (* x, y, z are pairwise incomparable *)
    rewrite (Hn _ _ _ Eyz Ezx), (Hn _ _ _ Ezx Exy). apply IH.
  Qed.

  Lemma lexb_asym a b : lexb a b = true -> lexb b a = false.
  Proof using Hi Ht Hn. exact (lexb_asym_of lt_asym a b). Qed.

  (* a < b < c: if a !< c then, as c !< b, negative transitivity gives a !< b *)
  Lemma lexb_trans : forall a b c, lexb a b = true -> lexb b c = true -> lexb a c = true.
  Proof.
    intros a b c Hab Hbc. destruct (lexb a c) eqn:E; [reflexivity|].
    rewrite (lexb_ntrans a c b E (lexb_asym b c Hbc)) in Hab. discriminate.
  Qed.
End Lex.

Definition strict_weak A lt := irrefl A lt /\ trans A lt /\ ntrans A lt.

Lemma lexb_sw A lt : strict_weak A lt -> strict_weak (list A) (lexb A lt).
Proof.
  intros (Hi & Ht & Hn).
  exact (conj (lexb_irrefl A lt Hi) (conj (lexb_trans A lt Hi Ht Hn) (lexb_ntrans A lt Hn))).
Qed.

Lemma sw_ext A (lt lt' : A -> A -> bool) : (forall a b, lt a b = lt' a b) -> strict_weak A lt' -> strict_weak A lt.
Proof.
  intros E (Hi & Ht & Hn). split; [|split].
  - intros a. rewrite E. apply Hi.
  - intros a b c. rewrite !E. apply Ht.
  - intros a b c. rewrite !E. apply Hn.
Qed.

Lemma key_sw {A} (key : A -> Z) : strict_weak A (fun a b => key a <? key b).
Proof.
  split; [|split].
  - intros a. apply Z.ltb_irrefl.
  - intros a b c H1 H2. apply Z.ltb_lt in H1. apply Z.ltb_lt in H2. apply Z.ltb_lt. lia.
  - intros a b c H1 H2. apply Z.ltb_ge in H1. apply Z.ltb_ge in H2. apply Z.ltb_ge. lia.
Qed.

Lemma lex_lt_lexb : forall a b, lex_lt a b = lexb Z Z.ltb a b.
Proof. induction a as [|x a IH]; intros [|y b]; cbn [lex_lt lexb]; rewrite ?IH; reflexivity. Qed.
Lemma lex_lt_sw : strict_weak _ lex_lt.
Proof. exact (sw_ext _ _ _ lex_lt_lexb (lexb_sw _ _ (key_sw (fun z => z)))). Qed.

Lemma obj_lt_sw t : strict_weak _ (obj_lt t).
Proof. destruct t; first [apply (key_sw dec)|apply (key_sw sval)|apply (key_sw fkey)|apply lex_lt_sw]. Qed.

Lemma span_lt_lexb t : forall a b, span_lt t a b = lexb _ (obj_lt t) a b.
Proof. induction a as [|x a IH]; intros [|y b]; cbn [span_lt lexb]; rewrite ?IH; reflexivity. Qed.
Lemma span_lt_sw t : strict_weak _ (span_lt t).
Proof. exact (sw_ext _ _ _ (span_lt_lexb t) (lexb_sw _ _ (obj_lt_sw t))). Qed.

Lemma lex_lt_irrefl : irrefl _ lex_lt.
Proof. exact (proj1 lex_lt_sw). Qed.
Lemma lex_lt_trans : trans _ lex_lt.
Proof. exact (proj1 (proj2 lex_lt_sw)). Qed.
Lemma span_lt_irrefl t : irrefl _ (span_lt t).
Proof. exact (proj1 (span_lt_sw t)). Qed.
Lemma span_lt_trans t : trans _ (span_lt t).
Proof. exact (proj1 (proj2 (span_lt_sw t))). Qed.
Lemma span_lt_asym t a b : span_lt t a b = true -> span_lt t b a = false.
Proof. apply lt_asym; [apply span_lt_irrefl|apply span_lt_trans]. Qed.
Lemma lex_lt_asym a b : lex_lt a b = true -> lex_lt b a = false.
Proof. apply lt_asym; [apply lex_lt_irrefl|apply lex_lt_trans]. Qed.

Lemma list_eqb_refl a : list_eqb a a = true.
Proof. apply list_eqb_eq. reflexivity. Qed.
Lemma list_eqb_sym a b : list_eqb a b = list_eqb b a.
Proof. apply eq_true_iff_eq. rewrite !list_eqb_eq. split; congruence. Qed.
Lemma obj_eq_refl t a : obj_eq t a a = true.
Proof. destruct t; cbn [obj_eq]; first [apply list_eqb_refl|apply Z.eqb_refl]. Qed.
Lemma obj_eq_sym t a b : obj_eq t a b = obj_eq t b a.
Proof. destruct t; cbn [obj_eq]; first [apply list_eqb_sym|apply Z.eqb_sym]. Qed.
Lemma obj_eq_eq t a b : t <> TFlt -> obj_eq t a b = true <-> a = b.
Proof. intros Ht. destruct t; cbn [obj_eq]; try apply list_eqb_eq. congruence. Qed.
(* what the model's float comparison is: IEEE == and < wherever no NaN is involved *)
Lemma ieee_agrees a b : fnan a = false -> fnan b = false ->
  ieee_eq a b = obj_eq TFlt a b /\ ieee_lt a b = obj_lt TFlt a b.
Proof. intros Ha Hb. unfold ieee_eq, ieee_lt. rewrite Ha, Hb. cbn [negb andb obj_eq obj_lt]. auto. Qed.
(* < excludes ==; for floats too, where both compare the same key (Proxy.fkey) *)
Lemma obj_lt_not_eq t a b : obj_lt t a b = true -> obj_eq t a b = false.
Proof.
  destruct t; cbn [obj_lt obj_eq]; intros H.
  all: try (destruct (list_eqb a b) eqn:E; [apply list_eqb_eq in E; subst b|reflexivity]).
  all: try (rewrite ?Z.ltb_irrefl in H; discriminate).
  all: try (rewrite lex_lt_irrefl in H; discriminate).
  apply Z.eqb_neq. apply Z.ltb_lt in H. lia.
Qed.

Lemma span_eq_eq t : t <> TFlt -> forall a b, span_eq t a b = true <-> a = b.
Proof.
  intros Ht. induction a as [|x a IH]; intros [|y b]; cbn [span_eq]; try (split; congruence).
  rewrite andb_true_iff, (obj_eq_eq t x y Ht), IH.
  split; [intros [-> ->]; reflexivity|intros H; inversion H; auto].
Qed.
Lemma span_eq_refl t a : span_eq t a a = true.
Proof. induction a as [|x a IH]; cbn [span_eq]; [reflexivity|]. rewrite obj_eq_refl, IH. reflexivity. Qed.
Lemma span_eq_sym t : forall a b, span_eq t a b = span_eq t b a.
Proof.
  induction a as [|x a IH]; intros [|y b]; cbn [span_eq]; try reflexivity.
  rewrite (obj_eq_sym t x y), IH. reflexivity.
Qed.

Lemma equal_one_refl L m fl k : equal_one L m fl m fl k = true.
Proof. unfold equal_one. destruct (nth k (runs_eq L) RSkip); [reflexivity|apply span_eq_refl|apply list_eqb_refl]. Qed.
Lemma equal_one_sym L m1 fl1 m2 fl2 k : equal_one L m1 fl1 m2 fl2 k = equal_one L m2 fl2 m1 fl1 k.
Proof. unfold equal_one. destruct (nth k (runs_eq L) RSkip); [reflexivity|apply span_eq_sym|apply list_eqb_sym]. Qed.

Lemma elem_equal_refl L m fl : elem_equal L m fl m fl = true.
Proof. unfold elem_equal. apply forallb_forall. intros k _. apply equal_one_refl. Qed.
Lemma elem_equal_sym L m1 fl1 m2 fl2 : elem_equal L m1 fl1 m2 fl2 = elem_equal L m2 fl2 m1 fl1.
Proof. apply forallb_ext_in_. intros k _. apply equal_one_sym. Qed.

(* Both element-level operators go through a run table R index by index and compare, at entry
   k, a MANUAL field as a span of objects (with f) or a run as bytes (with g).  The shape of
   that step, for operands of any type X that have objects and bytes.  Proxy.equal_one and
   Proxy.less_one, written there as a match, are instances of it by conversion (operands
   [ref_objs], [ref_run] below), so elem_equal and elem_less are [forallb (comp ...)]: *)
Definition comp {X} (R : list ridx) (f : nat -> list (list Z) -> list (list Z) -> bool)
    (g : list Z -> list Z -> bool) (objs : nat -> X -> list (list Z)) (bytes : nat -> nat -> X -> list Z)
    (k : nat) (a b : X) : bool :=
  match nth k R RSkip with
  | RSkip => true
  | RManual => f k (objs k a) (objs k b)
  | REnd e => g (bytes k e a) (bytes k e b)
  end.
Definition ref_objs L k (x : mem * list (Z * Z)) := fld_objs L (fst x) (snd x) k.
Definition ref_run L k e (x : mem * list (Z * Z)) := run_bytes L (fst x) (snd x) k e.

(* The element-level < is the conjunction over the entries of runs_lex L of "this component of
   lhs is less than that of rhs".  Its laws depend on that shape only, not on where objects
   and bytes come from.  Component 0 always exists: the first field is never skipped. *)
Section ProductOrder.
  Variable L : list param.
  Variable X : Type.
  Variable objs : nat -> X -> list (list Z).
  Variable bytes : nat -> nat -> X -> list Z.

  Definition comp_lt : nat -> X -> X -> bool :=
    comp (runs_lex L) (fun k => span_lt (pty (nth k L pparam0))) lex_lt objs bytes.
  Definition prod_lt (a b : X) : bool := forallb (fun k => comp_lt k a b) (seq 0 (length L)).

  Lemma comp_lt_trans k : trans X (comp_lt k).
  Proof.
    intros a b c. unfold comp_lt, comp. destruct (nth k (runs_lex L) RSkip); [reflexivity| |].
    - apply span_lt_trans.
    - apply lex_lt_trans.
  Qed.

  Lemma prod_lt_trans : trans X prod_lt.
  Proof.
    intros a b c. unfold prod_lt. rewrite !forallb_forall. intros H1 H2 k Hk.
    exact (comp_lt_trans k a b c (H1 k Hk) (H2 k Hk)).
  Qed.

  Hypothesis HL : L <> [].

  Lemma comp_lt_asym0 a b : comp_lt 0 a b = true -> comp_lt 0 b a = false.
  Proof.
    unfold comp_lt, comp, runs_lex. pose proof (runs_first_not_skip lxm true false L HL) as H0.
    destruct (nth 0 (runs lxm true false L) RSkip); [congruence| |].
    - apply span_lt_asym.
    - apply lex_lt_asym.
  Qed.

  Lemma first_in : In O (seq 0 (length L)).
  Proof. apply in_seq. destruct L; [congruence|cbn [length]; lia]. Qed.

  (* one failing component decides; component 0 is always there to fail *)
  Lemma prod_lt_false0 a b : comp_lt 0 a b = false -> prod_lt a b = false.
  Proof.
    intros H. apply not_true_iff_false. intros E. unfold prod_lt in E. rewrite forallb_forall in E.
    rewrite (E O first_in) in H. discriminate.
  Qed.

  Lemma prod_lt_asym a b : prod_lt a b = true -> prod_lt b a = false.
  Proof.
    intros H. apply prod_lt_false0, comp_lt_asym0. unfold prod_lt in H. rewrite forallb_forall in H.
    exact (H O first_in).
  Qed.

  Lemma prod_lt_irrefl : irrefl X prod_lt.
  Proof. intros a. destruct (prod_lt a a) eqn:E; [|reflexivity]. rewrite <- E. apply prod_lt_asym. exact E. Qed.
End ProductOrder.

Theorem elem_less_irrefl L m fl : L <> [] -> elem_less L m fl m fl = false.
Proof. intros HL. exact (prod_lt_irrefl L _ (ref_objs L) (ref_run L) HL (m, fl)). Qed.

Theorem elem_less_asym L m1 fl1 m2 fl2 : L <> [] ->
  elem_less L m1 fl1 m2 fl2 = true -> elem_less L m2 fl2 m1 fl1 = false.
Proof. intros HL. exact (prod_lt_asym L _ (ref_objs L) (ref_run L) HL (m1, fl1) (m2, fl2)). Qed.

Theorem elem_less_trans L m1 fl1 m2 fl2 m3 fl3 :
  elem_less L m1 fl1 m2 fl2 = true -> elem_less L m2 fl2 m3 fl3 = true ->
  elem_less L m1 fl1 m3 fl3 = true.
Proof. exact (prod_lt_trans L _ (ref_objs L) (ref_run L) (m1, fl1) (m2, fl2) (m3, fl3)). Qed.

Lemma six_spec eq lt gt :
  six eq lt gt = [eq; negb eq; lt; negb gt; gt; negb lt].
Proof. reflexivity. Qed.

(* when vector == and vector < compare the whole buffers (vector.hpp): the conditions of
   Proxy.vec_equal and Proxy.vec_less under a name *)
Definition eq_fast (L : list param) (v1 v2 : vec) : bool :=
  forallb eqm L && padfree L && list_eqb (v_fixed v1) (v_fixed v2).
Definition lt_fast (L : list param) (v1 v2 : vec) : bool :=
  forallb lxm L && negb (has_varying L) && padfree L && list_eqb (v_fixed v1) (v_fixed v2).

Lemma eq_fast_iff L v1 v2 :
  eq_fast L v1 v2 = true <-> forallb eqm L = true /\ padfree L = true /\ v_fixed v1 = v_fixed v2.
Proof. unfold eq_fast. rewrite !andb_true_iff, list_eqb_eq. tauto. Qed.
Lemma lt_fast_iff L v1 v2 :
  lt_fast L v1 v2 = true <->
  forallb lxm L = true /\ has_varying L = false /\ padfree L = true /\ v_fixed v1 = v_fixed v2.
Proof. unfold lt_fast. rewrite !andb_true_iff, negb_true_iff, list_eqb_eq. tauto. Qed.

Lemma eq_fast_sym L v1 v2 : eq_fast L v1 v2 = eq_fast L v2 v1.
Proof. unfold eq_fast. rewrite (list_eqb_sym (v_fixed v1)). reflexivity. Qed.
Lemma lt_fast_sym L v1 v2 : lt_fast L v1 v2 = lt_fast L v2 v1.
Proof. unfold lt_fast. rewrite (list_eqb_sym (v_fixed v1)). reflexivity. Qed.

Lemma lxm_eqm p : lxm p = true -> eqm p = true.
Proof. unfold lxm, eqm. destruct (pty p); congruence. Qed.
Lemma lt_fast_eq_fast L v1 v2 : lt_fast L v1 v2 = true -> eq_fast L v1 v2 = true.
Proof.
  rewrite lt_fast_iff, eq_fast_iff. intros (Hl & _ & Hpf & Hfx). split; [|split; assumption].
  rewrite forallb_forall in *. intros p Hp. apply lxm_eqm, Hl, Hp.
Qed.

Lemma elems_equal_refl L v : elems_equal L v v = true.
Proof.
  unfold elems_equal. rewrite Z.eqb_refl. cbn [andb].
  apply forallb_forall. intros i _. apply elem_equal_refl.
Qed.
Lemma vec_equal_refl L v : vec_equal L v v = true.
Proof.
  unfold vec_equal. destruct (_ && _ && _).
  - rewrite Z.eqb_refl. cbn [negb]. destruct (vsize L v =? 0); [reflexivity|apply list_eqb_refl].
  - apply elems_equal_refl.
Qed.

Lemma elems_equal_sym L v1 v2 : elems_equal L v1 v2 = elems_equal L v2 v1.
Proof.
  unfold elems_equal. rewrite (Z.eqb_sym (vsize L v1)).
  destruct (vsize L v2 =? vsize L v1) eqn:E; [|reflexivity].
  apply Z.eqb_eq in E. rewrite E. cbn [andb].
  apply forallb_ext_in_. intros k _. apply elem_equal_sym.
Qed.
Lemma vec_equal_sym L v1 v2 : vec_equal L v1 v2 = vec_equal L v2 v1.
Proof.
  unfold vec_equal. fold (eq_fast L v1 v2) (eq_fast L v2 v1). rewrite (eq_fast_sym L v1 v2).
  destruct (eq_fast L v2 v1).
  - rewrite (Z.eqb_sym (vsize L v2)). destruct (vsize L v1 =? vsize L v2) eqn:E; cbn [negb]; [|reflexivity].
    apply Z.eqb_eq in E. rewrite E. destruct (vsize L v2 =? 0); [reflexivity|apply list_eqb_sym].
  - apply elems_equal_sym.
Qed.

Lemma elems_less_from_irrefl L v : L <> [] -> forall fuel i, elems_less_from L v v i fuel = false.
Proof.
  intros HL. induction fuel as [|f IH]; intros i; cbn [elems_less_from].
  - destruct (vsize L v <=? i) eqn:E; [|reflexivity]. cbn [andb]. apply Z.leb_le in E. apply Z.ltb_ge. exact E.
  - rewrite orb_diag. destruct (vsize L v <=? i) eqn:E.
    + cbn [andb]. apply Z.leb_le in E. apply Z.ltb_ge. exact E.
    + unfold ref_less. rewrite elem_less_irrefl by exact HL. apply IH.
Qed.
Theorem vec_less_irrefl L v : L <> [] -> vec_less L v v = false.
Proof.
  intros HL. unfold vec_less. destruct (_ && _ && _ && _).
  - destruct (vsize L v =? 0); [reflexivity|]. destruct (dend L v =? 0); [apply Z.ltb_irrefl|apply lex_lt_irrefl].
  - apply elems_less_from_irrefl. exact HL.
Qed.
