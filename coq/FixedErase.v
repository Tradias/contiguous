(* FixedErase.v — erase on lists WITHOUT VaryingSize parameter but with non-trivially relocatable
   value types (C01 and everything built on the refinement): the element-wise path
   (move_forward_nt: every element behind the erased ones is re-emplaced - moved field by field,
   object by object through its move constructor - one or more strides further to the front, and
   its source destroyed).  With a fixed stride source and target of a move never overlap, and
   the refinement holds. *)
From Coq Require Import ZArith Lia List.
From Cntgs Require Import ListAux BaseLemmas Layout LayoutThm Mem MemLemmas Vector Spec Rep StableThm ElemLemmas
     Ordered Refine Proxy NtBase.
Import ListNotations.
Local Open Scope Z_scope.

Lemma move_objs_spec p bid : 0 < psz p -> forall n m src dst, dst + Z.of_nat n * psz p <= src ->
  let m' := fst (move_objs p bid m src dst n) in
  (forall x, dst <= x < dst + Z.of_nat n * psz p -> m' x = m (x - dst + src)) /\
  (forall x, ~ (dst <= x < dst + Z.of_nat n * psz p) -> ~ (src <= x < src + Z.of_nat n * psz p) -> m' x = m x).
Proof.
  intros Hp. induction n as [|n IH]; intros m src dst Hd; cbv zeta.
  - split; [intros x Hx; lia|reflexivity].
  - cbn [move_objs]. rewrite Nat2Z.inj_succ, Z.mul_succ_l in *.
    set (m1 := mwrite m dst (mread m src (Z.to_nat (psz p)))).
    assert (H1 : forall x, m1 x = mmove m src dst (psz p) x).
    { intros x. unfold m1. rewrite mwrite_mread_at, Z2Nat.id by lia. reflexivity. }
    set (m2 := if ntc true p then mwrite m1 src (moved_bytes (psz p)) else m1).
    assert (H2 : forall x, ~ (src <= x < src + psz p) -> m2 x = m1 x).
    { intros x Hx. destruct (ntc true p); [|reflexivity]. apply mwrite_moved_out; assumption. }
    specialize (IH m2 (src + psz p) (dst + psz p) ltac:(lia)).
    destruct (move_objs p bid m2 (src + psz p) (dst + psz p) n) as [m3 evs]. cbn [fst] in *.
    destruct IH as [I1 I2]. split.
    + intros x Hx. destruct (Z.lt_ge_cases x (dst + psz p)) as [Hlt|Hge].
      * rewrite I2, H2, H1 by lia. apply mmove_in. lia.
      * rewrite I1, H2, H1, mmove_out by lia. f_equal. lia.
    + intros x Hx1 Hx2. rewrite I2, H2, H1 by lia. apply mmove_out. lia.
Qed.

Lemma extents_nth_ge : forall L cnts xs lo hi k, ordered_from lo (extents L cnts xs) hi ->
  length xs = length L -> length cnts = length L -> (k < length L)%nat -> lo <= nth k xs 0.
Proof.
  induction L as [|p L IH]; intros cnts xs lo hi k Ho Hlx Hlc Hk; [cbn [length] in Hk; lia|].
  destruct xs as [|x xs]; [discriminate|]. destruct cnts as [|c cnts]; [discriminate|].
  cbn [extents ordered_from] in Ho. destruct Ho as (H1 & H2 & Ho). cbn [length] in *.
  destruct k as [|k]; cbn [nth]; [exact H1|].
  specialize (IH cnts xs _ hi k Ho ltac:(lia) ltac:(lia) ltac:(lia)). lia.
Qed.

Lemma move_fields_spec bid L : forall pv xs cnts m a lo hi,
  Forall wfp L -> Forall (fun c => 0 <= c) cnts -> length xs = length L -> length cnts = length L ->
  (length L <= length pv)%nat ->
  ordered_from lo (extents L cnts xs) hi ->
  snd (place_from L pv cnts a) <= lo ->
  let T := fst (place_from L pv cnts a) in
  let m' := fst (fst (move_fields L pv (combine xs cnts) bid m a)) in
  (forall k x, (k < length L)%nat ->
     nth k T 0 <= x < nth k T 0 + nth k cnts 0 * psz (nth k L pparam0) -> m' x = m (x - nth k T 0 + nth k xs 0)) /\
  (forall x, x < a \/ snd (place_from L pv cnts a) <= x < lo \/ hi <= x -> m' x = m x).
Proof.
  induction L as [|p L IH]; intros pv xs cnts m a lo hi HF Hc Hlx Hlc Hpv Ho He; cbv zeta.
  - split; [intros k x Hk; cbn [length] in Hk; lia|reflexivity].
  - destruct xs as [|x0 xs]; [discriminate|]. destruct cnts as [|c cnts]; [discriminate|].
    destruct pv as [|pt pv]; [cbn [length] in Hpv; lia|]. cbn [length] in Hlx, Hlc, Hpv.
    cbn [combine move_fields]. rewrite place_from_cons in He |- *. cbn [fst snd] in He |- *.
    cbn [extents ordered_from] in Ho. destruct Ho as (H1 & H2 & Ho).
    apply Forall_cons_iff in HF. destruct HF as [[Hs Hal] HF]. apply Forall_cons_iff in Hc. destruct Hc as [Hc0 Hcr].
    set (a' := align_if (pt <? pal p) (pal p) a) in *.
    assert (Haa : a <= a') by (unfold a'; apply align_if_ge; apply pow2_pos; exact Hal).
    pose proof (place_from_end_ge L pv cnts (a' + c * psz p) HF Hcr) as Hge.
    pose proof (ordered_from_le _ _ _ Ho) as Hle.
    pose proof (move_objs_spec p bid Hs (Z.to_nat c) m x0 a' ltac:(rewrite Z2Nat.id by lia; lia)) as Hm.
    rewrite Z2Nat.id in Hm by lia.
    destruct (move_objs p bid m x0 a' (Z.to_nat c)) as [m1 e1]. destruct Hm as [M1 M2].
    specialize (IH pv xs cnts m1 (a' + c * psz p) (x0 + c * psz p) hi HF Hcr
                   ltac:(lia) ltac:(lia) ltac:(lia) Ho ltac:(lia)).
    destruct (move_fields L pv (combine xs cnts) bid m1 (a' + c * psz p)) as [[m2 e2] e]. cbn [fst] in *.
    destruct IH as [I1 I2]. split.
    + intros k x Hk Hx. cbn [length] in Hk. destruct k as [|k]; cbn [nth] in *.
      * rewrite I2 by lia. apply M1. exact Hx.
      * rewrite (I1 k x ltac:(lia) Hx).
        (* the source of a later field lies behind field 0's source, hence behind every target *)
        pose proof (extents_nth_ge L cnts xs _ hi k Ho ltac:(lia) ltac:(lia) ltac:(lia)).
        apply M2; lia.
    + intros x Hx. rewrite I2 by lia. apply M2; lia.
Qed.

(* what move_one_nt does to the memory: the element at [s] is re-emplaced at [a], entirely in
   front of itself, then the source is destroyed *)
Section MoveElem.
  Variable L : list param.
  Hypothesis Hwf : wf_plist L = true.
  Let HF : Forall wfp L := wf_plist_Forall L Hwf.

  Lemma move_elem_spec bid m t fc s a : tuple_ok L fc 0 t ->
    0 <= a -> (SA L | a) -> 0 <= s -> (SA L | s) -> elem_at L m s t -> elem_end L a t <= s ->
    let fl := combine (fst (place L (cnts_of t) s)) (cnts_of t) in
    let m1 := fst (fst (move_fields L (prevs L) fl bid m a)) in
    let m2 := fst (destruct_fields L fl bid m1) in
    elem_at L m2 a t /\
    (forall x, x < a \/ elem_end L a t <= x < s \/ elem_end L s t <= x -> m2 x = m x).
  Proof.
    intros Ht Ha HaS Hs HsS He Hbefore. cbv zeta.
    pose proof (cnts_length L t fc Ht) as Hlc.
    assert (Hpv : (length L <= length (prevs L))%nat) by (rewrite prevs_length; lia).
    pose proof (place_ordered L _ s Hwf (tuple_ok_cnt_ok L _ _ t Ht) Hs HsS) as Hord.
    pose proof (move_fields_spec bid L (prevs L) _ _ m a s _ HF (cnts_of_nonneg t)
                  (place_from_fst_length L (prevs L) _ s Hpv Hlc) Hlc Hpv Hord Hbefore) as HM.
    destruct (move_fields L (prevs L) _ bid m a) as [[m1 e1] e]. cbn [fst] in *.
    destruct HM as [M1 M2].
    (* every field holds in m1 at the target the bytes it held in m at the source *)
    assert (E1 : elem_at L m1 a t).
    { apply (elem_at_transfer L t fc m s m1 a Hwf Ht He). intros j i Hj Hi. unfold place.
      rewrite (M1 j _ Hj) by lia. f_equal. lia. }
    pose proof (fun y => destruct_fields_frame L _ _ bid m1 s _ y HF (cnts_of_nonneg t) Hord) as Hfr.
    destruct (destruct_fields L _ bid m1) as [m2 e2].
    pose proof (elem_end_ge L Hwf a t). unfold elem_end, place in *.
    split.
    - apply (elem_at_ext L Hwf m1 m2 a t fc Ht); [|exact E1]. intros x Hx. apply Hfr. unfold elem_end, place in Hx. lia.
    - intros x Hx. rewrite Hfr by lia. apply M2. lia.
  Qed.
End MoveElem.

Section FixedLoop.
  Variable L : list param.
  Hypothesis Hwf : wf_plist L = true.
  Hypothesis Hv : has_varying L = false.

  Variables (v : vec) (l : list tuple).
  Let S := v_stride v.
  Let fc := fixed_counts L (v_fixed v).
  Hypothesis Hst : stride_ok L fc S.
  Hypothesis Htup : Forall (tuple_ok L fc 0) l.
  Variables (to from : nat).
  Hypothesis Htf : (to < from)%nat.
  Hypothesis Hfl : (from <= length l)%nat.

  Let n := length l.

  Lemma tup k : (k < n)%nat -> tuple_ok L fc 0 (nth k l []).
  Proof. exact (proj1 (Forall_nth _ l) Htup k []). Qed.

  (* the state of the memory after j elements have been moved *)
  Definition linv (j : nat) (mj : mem) : Prop :=
    (forall k, (k < to)%nat -> elem_at L mj (S * Z.of_nat k) (nth k l [])) /\
    (forall r, (r < j)%nat -> elem_at L mj (S * Z.of_nat (to + r)) (nth (from + r) l [])) /\
    (forall r, (j <= r)%nat -> (from + r < n)%nat -> elem_at L mj (S * Z.of_nat (from + r)) (nth (from + r) l [])).

  Lemma eaddr_fixed m k : eaddr L (set_mem v m) k = S * k.
  Proof. unfold eaddr. rewrite Hv. reflexivity. Qed.

  Lemma loop_step j mj : linv j mj -> (from + j < n)%nat ->
    exists m', fst (move_one_nt L (set_mem v mj) (Z.of_nat (from + j)) (Z.of_nat (to + j))) = set_mem v m' /\ linv (Datatypes.S j) m'.
  Proof.
    intros (Ia & Ib & Ic) Hj. unfold move_one_nt. rewrite eaddr_fixed, Hv.
    change (v_fixed (set_mem v mj)) with (v_fixed v). change (v_mem (set_mem v mj)) with mj.
    change (v_bid (set_mem v mj)) with (v_bid v). change (v_stride (set_mem v mj)) with S.
    set (t := nth (from + j) l []).
    pose proof (tup (from + j) Hj) as Ht. pose proof (Ic j (le_n _) Hj) as Hes. fold t in Ht, Hes.
    rewrite (load_table L Hwf (v_fixed v) mj _ t Ht Hes).
    destruct (stride_slot L fc S (from + j) Hst) as [Hs0 HsS]. destruct (stride_slot L fc S (to + j) Hst) as [Ha0 HaS].
    pose proof (move_elem_spec L Hwf (bidn (v_bid v)) mj t fc _ _ Ht Ha0 HaS Hs0 HsS Hes
                  (stride_fits L fc S (to + j) (from + j) t Hst Ht ltac:(lia))) as HM. cbv zeta in HM.
    destruct (move_fields L (prevs L) _ (bidn (v_bid v)) mj (S * Z.of_nat (to + j))) as [[m1 e1] e]. cbn [fst] in HM.
    destruct (destruct_fields L _ (bidn (v_bid v)) m1) as [m2 e2]. cbn [fst] in HM.
    destruct HM as [Hnew Hfr].
    exists m2. split; [reflexivity|].
    (* a slot in front of the target or behind the source keeps what it holds *)
    assert (Hkeep : forall q u, tuple_ok L fc 0 u -> (q < to + j \/ from + j < q)%nat ->
                      elem_at L mj (S * Z.of_nat q) u -> elem_at L m2 (S * Z.of_nat q) u).
    { intros q u Hu Hq. apply (elem_at_ext L Hwf mj m2 _ _ fc Hu). intros x Hx. apply Hfr.
      destruct Hq as [Hq|Hq].
      - left. pose proof (stride_fits L fc S q (to + j) u Hst Hu Hq). lia.
      - right. right. pose proof (stride_fits L fc S (from + j) q t Hst Ht Hq). lia. }
    split; [|split].
    - intros k Hk. apply Hkeep; [apply tup; lia|lia|exact (Ia k Hk)].
    - intros r Hr. destruct (Nat.eq_dec r j) as [->|Hne]; [exact Hnew|].
      apply Hkeep; [apply tup; lia|lia|apply Ib; lia].
    - intros r Hr Hrn. apply Hkeep; [exact (tup _ Hrn)|lia|exact (Ic r ltac:(lia) Hrn)].
  Qed.

  Lemma loop_all : forall cnt j mj, linv j mj -> (from + j + cnt = n)%nat ->
    exists mf, fst (move_forward_nt L (set_mem v mj) (Z.of_nat (from + j)) (Z.of_nat (to + j)) cnt) = set_mem v mf /\
               linv (j + cnt) mf.
  Proof.
    induction cnt as [|cnt IH]; intros j mj Hinv Hc.
    - exists mj. split; [reflexivity|]. rewrite Nat.add_0_r. exact Hinv.
    - cbn [move_forward_nt].
      destruct (loop_step j mj Hinv ltac:(lia)) as (m' & E & Hinv').
      destruct (move_one_nt L (set_mem v mj) (Z.of_nat (from + j)) (Z.of_nat (to + j))) as [v1 e1]. cbn [fst] in E. subst v1.
      specialize (IH (Datatypes.S j) m' Hinv' ltac:(lia)).
      replace (Z.of_nat (from + j) + 1) with (Z.of_nat (from + Datatypes.S j)) by lia.
      replace (Z.of_nat (to + j) + 1) with (Z.of_nat (to + Datatypes.S j)) by lia.
      destruct IH as (mf & E2 & Hf).
      destruct (move_forward_nt L (set_mem v m') _ _ cnt) as [v2 e2].
      exists mf. split; [exact E2|]. replace (j + Datatypes.S cnt)%nat with (Datatypes.S j + cnt)%nat by lia. exact Hf.
  Qed.

  Lemma linv_start m0 :
    (forall k, (k < to \/ from <= k)%nat -> (k < n)%nat -> elem_at L m0 (S * Z.of_nat k) (nth k l [])) -> linv 0 m0.
  Proof.
    intros H. split; [|split].
    - intros k Hk. apply H; lia.
    - lia.
    - intros r _ Hr. apply H; [lia|exact Hr].
  Qed.

  Lemma linv_final mf k : linv (n - from) mf -> (k < n - (from - to))%nat ->
    elem_at L mf (S * Z.of_nat k) (nth k (firstn to l ++ skipn from l) []).
  Proof.
    intros (Ia & Ib & _) Hk. assert (Hft : length (firstn to l) = to) by (apply firstn_length_le; lia).
    destruct (Nat.lt_ge_cases k to) as [Hlt|Hge].
    - rewrite app_nth1, nth_firstn_ by lia. exact (Ia k Hlt).
    - rewrite app_nth2, Hft, nth_skipn_ by lia.
      replace k with (to + (k - to))%nat at 1 by lia. exact (Ib (k - to)%nat ltac:(lia)).
  Qed.
End FixedLoop.

Section FixedEraseRep.
  Variable L : list param.
  Hypothesis Hwf : wf_plist L = true.
  Hypothesis Hv : has_varying L = false.
  Hypothesis Hnt : all_triv L = false.

  Variables (v : vec) (l : list tuple) (offs : list Z).
  Hypothesis R : RepO L v l offs.
  Let S := v_stride v.
  Let fc := fixed_counts L (v_fixed v).
  Let n := length l.

  Lemma fixed_loc : v_count v = Z.of_nat n /\ offs = map (fun k => S * Z.of_nat k) (seq 0 n) /\ stride_ok L fc S.
  Proof. pose proof (r_loc _ _ _ _ R) as H. rewrite Hv in H. exact H. Qed.

  Lemma slot_nth k : (k < n)%nat -> nth k offs 0 = S * Z.of_nat k.
  Proof. intros Hk. rewrite (proj1 (proj2 fixed_loc)). apply nth_map_seq. exact Hk. Qed.

  Lemma orig_elem k : (k < n)%nat -> elem_at L (v_mem v) (S * Z.of_nat k) (nth k l []).
  Proof.
    intros Hk. rewrite <- (slot_nth k Hk).
    apply (Forall2_nth_ _ offs l 0 [] k (r_elems _ _ _ _ R)). rewrite (rep_len L v l offs R). exact Hk.
  Qed.

  Lemma vsize_n : vsize L v = Z.of_nat n.
  Proof using Hv R. exact (rep_vsize L v l offs R). Qed.

  (* destroying the elements [c, c + cnt): every other slot keeps its element *)
  Lemma destruct_range_fixed i : forall cnt c m, (i <= c)%nat -> (c + cnt <= n)%nat ->
    (forall k, (k < i \/ c <= k)%nat -> (k < n)%nat -> elem_at L m (S * Z.of_nat k) (nth k l [])) ->
    exists m', fst (destruct_range L (set_mem v m) (Z.of_nat c) cnt) = set_mem v m' /\
      (forall k, (k < i \/ c + cnt <= k)%nat -> (k < n)%nat -> elem_at L m' (S * Z.of_nat k) (nth k l [])).
  Proof.
    intros cnt c m Hic Hcn Hm. destruct fixed_loc as (_ & _ & Hst).
    destruct (destruct_range_inside L Hwf v l offs R cnt c m Hcn) as (m' & E & F).
    { intros k Hk. rewrite slot_nth by (fold n; lia). apply Hm; fold n; lia. }
    exists m'. split; [exact E|]. intros k Hk Hkn.
    pose proof (tup L v l (r_tuples _ _ _ _ R)) as Htup.
    apply (elem_at_ext L Hwf m m' _ _ fc (Htup k Hkn)); [|apply Hm; [lia|exact Hkn]].
    intros x Hx. apply F. intros q Hq. rewrite slot_nth by (fold n; lia).
    (* slots k and q are different *)
    destruct (Nat.lt_ge_cases k q) as [Hkq|Hqk].
    - pose proof (stride_fits L fc S k q _ Hst (Htup k Hkn) Hkq). lia.
    - pose proof (stride_fits L fc S q k _ Hst (Htup q ltac:(fold n; lia)) ltac:(lia)). lia.
  Qed.

  (* moving the elements behind [to, from) forward and shrinking *)
  Theorem shrink_fixed_rep to from m0 : (to < from)%nat -> (from <= n)%nat ->
    (forall k, (k < to \/ from <= k)%nat -> (k < n)%nat -> elem_at L m0 (S * Z.of_nat k) (nth k l [])) ->
    let v' := resize L (fst (move_forward L (set_mem v m0) (Z.of_nat from) (Z.of_nat to))) (Z.of_nat (n - (from - to))) in
    Rep L v' (firstn to l ++ skipn from l) /\ v_cap v' = v_cap v /\ v_fixed v' = v_fixed v /\
    v_bid v' = v_bid v /\ v_stride v' = v_stride v /\ v_units v' = v_units v.
  Proof.
    intros Htf Hfn Hm0. split.
    2:{ destruct (move_forward_quiet L (set_mem v m0) (Z.of_nat from) (Z.of_nat to)) as [_ Hsh].
        destruct (same_shape_trans _ _ _ Hsh (resize_shape L _ (Z.of_nat (n - (from - to))))) as (C & B & U & _ & F & St & _).
        repeat split; assumption. }
    destruct fixed_loc as (Hcnt & _ & Hst).
    unfold move_forward. rewrite Hnt.
    change (vsize L (set_mem v m0)) with (vsize L v). rewrite vsize_n.
    replace (Z.to_nat (Z.of_nat n - Z.of_nat from)) with (n - from)%nat by lia.
    destruct (loop_all L Hwf Hv v l Hst (r_tuples _ _ _ _ R) to from Htf Hfn (n - from) 0 m0
                (linv_start L v l to from Htf Hfn m0 Hm0) ltac:(fold n; lia)) as (mf & E & Hf).
    rewrite !Nat.add_0_r in E. rewrite E. unfold resize. rewrite Hv.
    (* count and memory are all that has changed *)
    assert (Hlen : length (firstn to l ++ skipn from l) = (n - (from - to))%nat)
      by (rewrite app_length, firstn_length, skipn_length; fold n; lia).
    eexists. apply (RepO_slots L Hwf); cbn [v_stride v_fixed v_count v_cap v_mem set_count set_mem]; rewrite ?Hlen.
    - exact Hv.
    - exact Hst.
    - apply Forall_app. split; [apply Forall_firstn_|apply Forall_skipn_]; exact (r_tuples _ _ _ _ R).
    - reflexivity.
    - pose proof (r_cap _ _ _ _ R). fold n in H. lia.
    - intros k Hk. exact (linv_final L v l to from Htf Hfn mf k Hf Hk).
  Qed.

  (* destroying [i, j) leaves the other slots as they were; then the elements behind move forward *)
  Lemma erase_range_fixed_nt i j : (i < j)%nat -> (j < n)%nat ->
    exists m0, (forall k, (k < i \/ j <= k)%nat -> (k < n)%nat -> elem_at L m0 (S * Z.of_nat k) (nth k l [])) /\
      erase_range L v (Z.of_nat i) (Z.of_nat j) =
        (resize L (fst (move_forward L (set_mem v m0) (Z.of_nat j) (Z.of_nat i))) (Z.of_nat (n - (j - i))),
         snd (destruct_range L v (Z.of_nat i) (j - i)) ++ snd (move_forward L (set_mem v m0) (Z.of_nat j) (Z.of_nat i))).
  Proof.
    intros Hij Hjn.
    destruct (destruct_range_fixed i (j - i) i (v_mem v) (le_n _) ltac:(lia)
                ltac:(intros k _ Hk; exact (orig_elem k Hk))) as (m0 & E & Hm0).
    rewrite set_mem_id in E. exists m0. split; [intros k Hk; apply Hm0; lia|].
    unfold erase_range. rewrite vsize_n, destruct_range_guard, (proj2 (Z.ltb_lt _ _)), (proj2 (Z.eqb_neq _ _)) by lia.
    replace (Z.to_nat (Z.of_nat j - Z.of_nat i)) with (j - i)%nat by lia.
    destruct (destruct_range L v (Z.of_nat i) (j - i)) as [v1 e1]. cbn [fst] in E. subst v1. cbn [andb negb].
    destruct (move_forward L (set_mem v m0) (Z.of_nat j) (Z.of_nat i)) as [v2 e2].
    cbn [fst snd]. do 2 f_equal. lia.
  Qed.

  (* erase(first, last) with elements behind the range, and the empty range *)
  Theorem erase_range_rep_fixed_nt i j : (i <= j)%nat -> (j < n \/ i = j)%nat -> (j <= n)%nat ->
    let v' := fst (erase_range L v (Z.of_nat i) (Z.of_nat j)) in
    Rep L v' (remove_range i j l) /\ v_cap v' = v_cap v /\ v_fixed v' = v_fixed v /\
    v_bid v' = v_bid v /\ v_stride v' = v_stride v /\ v_units v' = v_units v.
  Proof.
    intros Hij Hj Hjn. split.
    2:{ destruct (erase_range_quiet L v (Z.of_nat i) (Z.of_nat j)) as [_ (C & B & U & _ & F & St & _)]. repeat split; assumption. }
    destruct (Nat.eq_dec i j) as [->|Hne].
    - rewrite erase_empty_range_identity. unfold remove_range. rewrite firstn_skipn. exists offs. exact R.
    - destruct (erase_range_fixed_nt i j ltac:(lia) ltac:(lia)) as (m0 & Hm0 & E). rewrite E.
      exact (proj1 (shrink_fixed_rep i j m0 ltac:(lia) ltac:(lia) Hm0)).
  Qed.

  (* erase(position) with elements behind it *)
  Theorem erase_rep_fixed_nt i : (i + 1 < n)%nat ->
    let v' := fst (erase L v (Z.of_nat i)) in
    Rep L v' (remove_range i (Datatypes.S i) l) /\ v_cap v' = v_cap v /\ v_fixed v' = v_fixed v /\
    v_bid v' = v_bid v /\ v_stride v' = v_stride v /\ v_units v' = v_units v.
  Proof.
    intros Hi. rewrite erase_as_erase_range by (rewrite vsize_n; lia).
    replace (Z.of_nat i + 1) with (Z.of_nat (Datatypes.S i)) by lia.
    exact (erase_range_rep_fixed_nt i (Datatypes.S i) ltac:(lia) ltac:(left; lia) ltac:(lia)).
  Qed.
End FixedEraseRep.
