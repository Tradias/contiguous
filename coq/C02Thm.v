(* C02Thm.v — capacity arithmetic (C02): what the needed-memory formula guarantees for lists
   without VaryingSize parameter, and the witness that it under-estimates in general. *)
From Coq Require Import ZArith Lia List.
From Cntgs Require Import Layout LayoutThm Vector Spec Rep Ordered EsizeThm.
Import ListNotations.
Local Open Scope Z_scope.

Lemma units_bounds L bytes : 0 < SA L -> bytes <= SA L * units L bytes < bytes + SA L.
Proof.
  intros HS. unfold units.
  pose proof (Z.div_mod bytes (SA L) ltac:(lia)) as Hdm.
  pose proof (Z.mod_pos_bound bytes (SA L) HS) as Hm.
  destruct (Z.eqb_spec (bytes mod SA L) 0); lia.
Qed.

(* a vector constructed for N elements holds any N elements: element i (at stride * i) ends
   inside the allocated block *)
Theorem fixed_capacity_sufficient L fixed N i t :
  wf_plist L = true -> has_varying L = false -> Forall (fun c => 0 <= c) fixed ->
  tuple_ok L (fixed_counts L fixed) 0 t -> 0 <= i < N ->
  let sz := esize L fixed in
  elem_end L (snd sz * i) t <= SA L * units L (needed N 0 sz).
Proof.
  intros Hwf Hnv Hfx Ht Hi. cbv zeta.
  pose proof (SA_pos L Hwf) as HSp.
  destruct (esize_stride_ok L fixed Hwf Hnv (fixed_counts_nonneg L fixed Hfx)) as (Hs0 & HsS & _).
  assert (Ha0 : 0 <= snd (esize L fixed) * i) by (apply Z.mul_nonneg_nonneg; lia).
  assert (HaS : (SA L | snd (esize L fixed) * i)) by (apply Z.divide_mul_l; auto).
  destruct (esize_exact L fixed t _ Hwf Hnv Ht Ha0 HaS) as [E1 E2].
  rewrite E1. destruct (esize L fixed) as [size stride] eqn:Es. cbn [fst snd] in *.
  unfold needed. replace (N =? 0) with false by (symmetry; apply Z.eqb_neq; lia).
  eapply Z.le_trans; [|apply units_bounds, HSp].
  assert (stride * i <= stride * (N - 1)) by (apply Z.mul_le_mono_nonneg_l; lia). lia.
Qed.

Theorem elements_inside_data L v l : wf_plist L = true -> Rep L v l ->
  exists offs, length offs = length l /\
    Forall2 (fun a t => 0 <= a /\ (SA L | a) /\ elem_end L a t <= dend L v) offs l.
Proof.
  intros Hwf [offs R]. exists offs. split.
  - eapply eo_length. exact (r_order _ _ _ _ R).
  - apply eo_bounds; auto. exact (r_order _ _ _ _ R).
Qed.

(* the worst case of the needed-memory formula is NOT sufficient in general: a plain
   field after the last VaryingSize span.  Four elements with 0, 4, 1 and 5 payload objects of
   7 bytes use the budget 70 = (0 + 4 + 1 + 5) * 7 exactly; size and stride are 15 and 16, the
   block has 136 bytes, the last element ends at 138. *)
Definition f7L : list param :=
  [ {| pk := Plain; psz := 8; pal := 8; pty := TUInt |};
    {| pk := Varying; psz := 7; pal := 8; pty := TBlob |};
    {| pk := Plain; psz := 7; pal := 1; pty := TBlob |} ].

(* end offset of elements stored one after the other, for lists of the shape of f7L
   (plain, VaryingSize, plain): element k has counts [1; c_k; 1] *)
Fixpoint fill_end (L : list param) (vcounts : list Z) (a : Z) : Z :=
  match vcounts with
  | [] => a
  | c :: r => fill_end L r (snd (place L [1; c; 1] (first_align L a)))
  end.

Theorem needed_refuted :
  exists L N B vcounts,
    wf_plist L = true /\ Z.of_nat (length vcounts) = N /\
    fold_right Z.add 0 (map (fun c => c * 7) vcounts) <= B /\
    SA L * units L (needed N B (esize L [])) < fill_end L vcounts 0.
Proof.
  exists f7L, 4, 70, [0; 4; 1; 5]. vm_compute. repeat split; try reflexivity; discriminate.
Qed.
