(* CmpContent.v — == and < of element references depend on the logical content only (C13, C14):
   two elements stored anywhere, in any memories, compare as a function of the two tuples,
   and == holds exactly when the tuples are field-wise equal.  The idea: a run compared
   byte-wise contains no alignment padding and at most one span, at its end (RunsThm), so its
   bytes are the concatenation of its fields' bytes.  Then the same for references into
   vectors in represented states, and for vector == on its element-wise path. *)
From Coq Require Import ZArith List Bool Lia.
From Cntgs Require Import ListAux Layout LayoutThm Mem MemLemmas Vector Proxy Spec Rep ElemLemmas Ordered Refine
     RunsThm CompareThm ElemThm.
Import ListNotations.
Local Open Scope Z_scope.

Section RunBytes.
  Variable L : list param.
  Hypothesis Hwf : wf_plist L = true.
  Variables (m : mem) (a : Z) (t : tuple) (fc : list Z).
  Hypothesis Ht : tuple_ok L fc 0 t.
  Hypothesis He : elem_at L m a t.

  Let HF : Forall wfp L := wf_plist_Forall L Hwf.
  Let A := fst (place L (cnts_of t) a).
  Definition fb (t' : tuple) (j : nat) : list Z := concat (nth j t' []).

  Lemma fb_len j : (j < length L)%nat ->
    Z.of_nat (length (fb t j)) = nth j (cnts_of t) 0 * psz (nth j L pparam0).
  Proof.
    intros Hj. exact (field_len L t fc j Hwf Ht Hj).
  Qed.

  Lemma field_bytes j : (j < length L)%nat -> mread m (nth j A 0) (length (fb t j)) = fb t j.
  Proof.
    intros Hj. unfold fb, A, place. apply elem_from_field; [exact He|exact Hj].
  Qed.

  (* without alignment step between them the fields k .. k+d are adjacent *)
  Lemma run_span : forall d k, (k + d < length L)%nat ->
    (forall j, (k < j <= k + d)%nat -> (nth j (prevs L) 0 <? pal (nth j L pparam0)) = false) ->
    nth (k + d) A 0 + nth (k + d) (cnts_of t) 0 * psz (nth (k + d) L pparam0)
      = nth k A 0 + Z.of_nat (length (concat (map (fb t) (seq k (S d))))) /\
    mread m (nth k A 0) (length (concat (map (fb t) (seq k (S d))))) = concat (map (fb t) (seq k (S d))).
  Proof.
    induction d as [|d IH]; intros k Hk Hnp.
    - rewrite Nat.add_0_r. cbn [seq map concat]. rewrite app_nil_r. split.
      + rewrite fb_len by lia. reflexivity.
      + apply field_bytes. lia.
    - assert (Hk' : (k + d < length L)%nat) by lia.
      destruct (IH k Hk' ltac:(intros j Hj; apply Hnp; lia)) as [IH1 IH2].
      rewrite seq_S, map_app, concat_app, app_length. cbn [map concat]. rewrite app_nil_r.
      set (pre := concat (map (fb t) (seq k (S d)))) in *.
      assert (Hnext : nth (S (k + d)) A 0 = nth k A 0 + Z.of_nat (length pre)).
      { unfold A, place. rewrite place_from_nth_succ; [|lia|exact (prevs_length_le L)|exact (cnts_length L t fc Ht)].
        rewrite (Hnp (S (k + d))) by lia. unfold align_if. fold (place L (cnts_of t) a). fold A. exact IH1. }
      replace (k + S d)%nat with (S (k + d)) by lia. split.
      + rewrite Hnext, Nat2Z.inj_add, (fb_len (S (k + d))) by lia. lia.
      + rewrite mread_app, IH2. f_equal. rewrite <- Hnext. apply field_bytes. lia.
  Qed.

  Let fl := ref_fl L t a.

  Lemma run_bytes_spec k e : (k <= e < length L)%nat ->
    (forall j, (k < j <= e)%nat -> (nth j (prevs L) 0 <? pal (nth j L pparam0)) = false) ->
    run_bytes L m fl k e = concat (map (fb t) (seq k (S (e - k)))).
  Proof.
    intros Hke Hnp. unfold run_bytes, fl. rewrite !(nth_fl L a t fc Ht) by lia. fold A. unfold fend. cbn [fst snd].
    destruct (run_span (e - k) k ltac:(lia) ltac:(intros j Hj; apply Hnp; lia)) as [H1 H2].
    replace (k + (e - k))%nat with e in H1 by lia.
    rewrite H1, Z.add_simpl_l, Nat2Z.id. exact H2.
  Qed.

  Lemma fld_objs_spec j : (j < length L)%nat -> fld_objs L m fl j = nth j t [].
  Proof.
    intros Hj. unfold fld_objs, fl. rewrite (nth_fl L a t fc Ht j Hj). fold A. rewrite nth_cnts_of.
    apply read_objs_concat.
    - apply psz_pos; assumption.
    - exact (proj1 (tuple_ok_field L fc 0 t j Ht Hj)).
    - apply field_bytes. exact Hj.
  Qed.
End RunBytes.

(* the operands of CompareThm.comp when they are tuples *)
Definition tup_objs (k : nat) (t : tuple) : list (list Z) := nth k t [].
Definition tup_run (k e : nat) (t : tuple) : list Z := concat (map (fb t) (seq k (S (e - k)))).

(* a table built with BreakAtPadding has no padding inside its runs (runs_tight): through a
   reference to a stored tuple a step reads the tuple's objects and bytes, whatever the memory *)
Lemma stored_view L pred bspan m a t fc k : wf_plist L = true -> tuple_ok L fc 0 t -> elem_at L m a t ->
  let R := runs pred true bspan L in
  (nth k R RSkip = RManual -> ref_objs L k (m, ref_fl L t a) = tup_objs k t) /\
  (forall e, nth k R RSkip = REnd e -> ref_run L k e (m, ref_fl L t a) = tup_run k e t).
Proof.
  intros Hwf Ht He R. destruct (runs_structure pred true bspan L) as (_ & _ & _ & Hs2). split.
  - intros Hk. exact (fld_objs_spec L Hwf m a t fc Ht He k (proj1 (Hs2 k Hk))).
  - intros e Hk. apply (run_bytes_spec L Hwf m a t fc Ht He k e (runs_bounds _ _ _ L k e Hk)).
    intros j Hj. exact (proj1 (runs_tight pred true bspan L k e Hk) j Hj eq_refl).
Qed.

Lemma comp_stored L pred bspan f g m1 a1 t1 fc1 m2 a2 t2 fc2 k : wf_plist L = true ->
  tuple_ok L fc1 0 t1 -> tuple_ok L fc2 0 t2 -> elem_at L m1 a1 t1 -> elem_at L m2 a2 t2 ->
  comp (runs pred true bspan L) f g (ref_objs L) (ref_run L) k (m1, ref_fl L t1 a1) (m2, ref_fl L t2 a2) =
  comp (runs pred true bspan L) f g tup_objs tup_run k t1 t2.
Proof.
  intros Hwf Ht1 Ht2 He1 He2.
  destruct (stored_view L pred bspan m1 a1 t1 fc1 k Hwf Ht1 He1) as [M1 B1].
  destruct (stored_view L pred bspan m2 a2 t2 fc2 k Hwf Ht2 He2) as [M2 B2].
  unfold comp. destruct (nth k (runs pred true bspan L) RSkip) as [| |e]; [reflexivity| |].
  - rewrite M1, M2 by reflexivity. reflexivity.
  - rewrite (B1 e eq_refl), (B2 e eq_refl). reflexivity.
Qed.

Lemma concat_chunks_inj (s : nat) : (0 < s)%nat -> forall f1 f2 : list (list Z),
  Forall (fun o => length o = s) f1 -> Forall (fun o => length o = s) f2 ->
  concat f1 = concat f2 -> f1 = f2.
Proof.
  intros Hs. induction f1 as [|x f1 IH]; intros [|y f2] H1 H2 Hc; [reflexivity| | |].
  - exfalso. apply Forall_inv in H2. cbn [concat] in Hc.
    destruct y as [|z y]; [cbn [length] in H2; lia|discriminate].
  - exfalso. apply Forall_inv in H1. cbn [concat] in Hc.
    destruct x as [|z x]; [cbn [length] in H1; lia|discriminate].
  - pose proof (Forall_inv H1) as Hx. pose proof (Forall_inv H2) as Hy.
    pose proof (Forall_inv_tail H1) as H1'. pose proof (Forall_inv_tail H2) as H2'.
    cbn [concat] in Hc. apply app_eq_len in Hc; [|cbn beta in *; congruence]. destruct Hc as [-> Hc].
    f_equal. apply IH; assumption.
Qed.

Definition noflt (L : list param) : Prop := forall j, (j < length L)%nat -> pty (nth j L pparam0) <> TFlt.

Section TwoOperands.
  Variable L : list param.
  Hypothesis Hwf : wf_plist L = true.
  Variables (t1 t2 : tuple) (fc1 fc2 : list Z).
  Hypothesis Ht1 : tuple_ok L fc1 0 t1.
  Hypothesis Ht2 : tuple_ok L fc2 0 t2.

  Lemma field_eq_of_bytes j : (j < length L)%nat -> fb t1 j = fb t2 j -> nth j t1 [] = nth j t2 [].
  Proof.
    intros Hj Hb. unfold fb in Hb.
    pose proof (psz_pos L Hwf j Hj) as Hp.
    apply (concat_chunks_inj (Z.to_nat (psz (nth j L pparam0)))); [lia| | |exact Hb].
    - exact (proj1 (tuple_ok_field L fc1 0 t1 j Ht1 Hj)).
    - exact (proj1 (tuple_ok_field L fc2 0 t2 j Ht2 Hj)).
  Qed.

  Lemma plain_field_len (t : tuple) fc j : tuple_ok L fc 0 t -> (j < length L)%nat ->
    is_plain (nth j L pparam0) = true -> length (fb t j) = Z.to_nat (psz (nth j L pparam0)).
  Proof.
    intros Ht Hj Hpl. destruct (tuple_ok_field L fc 0 t j Ht Hj) as [Ho H1].
    unfold is_plain in Hpl. destruct (pk (nth j L pparam0)) eqn:E; try discriminate.
    specialize (H1 eq_refl). unfold fb. destruct (nth j t []) as [|o [|o' r]]; cbn [length] in H1; try lia.
    inversion Ho as [|? ? Hol _]; subst. cbn [concat]. rewrite app_nil_r. exact Hol.
  Qed.

  (* a plain field has a fixed number of bytes, so the bytes of a run split in one way only *)
  Lemma run_fields_eq : forall d k, (k + d < length L)%nat ->
    (forall j, (k <= j < k + d)%nat -> is_plain (nth j L pparam0) = true) ->
    concat (map (fb t1) (seq k (S d))) = concat (map (fb t2) (seq k (S d))) ->
    forall j, (k <= j <= k + d)%nat -> nth j t1 [] = nth j t2 [].
  Proof.
    induction d as [|d IH]; intros k Hk Hpl Hc j Hj.
    - cbn [seq map concat] in Hc. rewrite !app_nil_r in Hc.
      assert (j = k) by lia. subst j. apply field_eq_of_bytes; [lia|exact Hc].
    - change (seq k (S (S d))) with (k :: seq (S k) (S d)) in Hc. cbn [map concat] in Hc.
      apply app_eq_len in Hc.
      + destruct Hc as [Hk1 Hrest]. destruct (Nat.eq_dec j k) as [->|Hne].
        * apply field_eq_of_bytes; [lia|exact Hk1].
        * apply (IH (S k)); [lia| |exact Hrest|lia]. intros i Hi. apply Hpl. lia.
      + rewrite (plain_field_len t1 fc1 k Ht1) by (try lia; apply Hpl; lia).
        rewrite (plain_field_len t2 fc2 k Ht2) by (try lia; apply Hpl; lia). reflexivity.
  Qed.

  (* field-wise content equivalence: each field's objects are equal under the value type's own
     == (identity of the object representations, except floating point) *)
  Definition tuple_eqv : Prop :=
    forall j, (j < length L)%nat -> span_eq (pty (nth j L pparam0)) (nth j t1 []) (nth j t2 []) = true.

  Lemma eqm_not_flt p : eqm p = true -> pty p <> TFlt.
  Proof. unfold eqm. destruct (pty p); congruence. Qed.

  Lemma eqv_run k e : tuple_eqv -> (k <= e < length L)%nat ->
    (forall j, (k <= j <= e)%nat -> eqm (nth j L pparam0) = true) -> tup_run k e t1 = tup_run k e t2.
  Proof.
    intros E Hke Hm. unfold tup_run. f_equal. apply map_ext_in. intros i Hi. apply in_seq in Hi. unfold fb. f_equal.
    apply (span_eq_eq (pty (nth i L pparam0))); [apply eqm_not_flt, Hm; lia|apply E; lia].
  Qed.

  (* the element-level == as a function of the tuples alone *)
  Definition tuple_equal : bool :=
    forallb (fun k => comp (runs_eq L) (fun k => span_eq (pty (nth k L pparam0))) list_eqb tup_objs tup_run k t1 t2)
            (seq 0 (length L)).

  (* a run of runs_eq holds memcmp-able fields only, and at most one span, at its end *)
  Lemma tuple_equal_eqv : tuple_equal = true <-> tuple_eqv.
  Proof.
    destruct (runs_structure eqm true true L) as (_ & Hcov & Hs1 & _). fold (runs_eq L) in Hcov, Hs1.
    unfold tuple_equal, comp. rewrite forallb_forall. split.
    - intros H j Hj. destruct (Hcov j Hj) as [Hm | (k & e & Hke & Hk)].
      + specialize (H j ltac:(apply in_seq; lia)). rewrite Hm in H. exact H.
      + destruct (Hs1 _ _ Hk) as [Hb _]. specialize (H k ltac:(apply in_seq; lia)). rewrite Hk in H.
        apply list_eqb_eq in H.
        rewrite (run_fields_eq (e - k) k ltac:(lia)
                   (fun i Hi => proj2 (runs_tight eqm true true L k e Hk) i ltac:(lia) eq_refl) H j ltac:(lia)).
        apply span_eq_refl.
    - intros E k Hk. apply in_seq in Hk.
      destruct (nth k (runs_eq L) RSkip) as [| |e] eqn:Ek; [reflexivity|apply E; lia|].
      destruct (Hs1 _ _ Ek) as [Hb Hpred]. apply list_eqb_eq. exact (eqv_run k e E Hb Hpred).
  Qed.

  Variables (m1 m2 : mem) (a1 a2 : Z).
  Hypothesis He1 : elem_at L m1 a1 t1.
  Hypothesis He2 : elem_at L m2 a2 t2.

  (* elem_equal is [forallb] of Proxy.equal_one, which is [comp (runs_eq L) ...] by conversion *)
  Lemma elem_equal_tuples : elem_equal L m1 (ref_fl L t1 a1) m2 (ref_fl L t2 a2) = tuple_equal.
  Proof.
    apply forallb_ext_in_. intros k _.
    exact (comp_stored L eqm true _ _ m1 a1 t1 fc1 m2 a2 t2 fc2 k Hwf Ht1 Ht2 He1 He2).
  Qed.

  Theorem elem_equal_content_eqv :
    elem_equal L m1 (ref_fl L t1 a1) m2 (ref_fl L t2 a2) = true <-> tuple_eqv.
  Proof. rewrite elem_equal_tuples. exact tuple_equal_eqv. Qed.

  Hypothesis Hnf : noflt L.

  Lemma tuple_eqv_eq : tuple_eqv <-> t1 = t2.
  Proof.
    split.
    - intros E. apply (nth_ext _ _ [] []).
      + rewrite (tuple_ok_length L fc1 0 t1 Ht1), (tuple_ok_length L fc2 0 t2 Ht2). reflexivity.
      + intros j Hj. rewrite (tuple_ok_length L fc1 0 t1 Ht1) in Hj.
        apply (span_eq_eq (pty (nth j L pparam0)) (Hnf j Hj)). apply E. exact Hj.
    - intros E j Hj. rewrite E. apply span_eq_refl.
  Qed.

  Theorem elem_equal_content :
    elem_equal L m1 (ref_fl L t1 a1) m2 (ref_fl L t2 a2) = true <-> t1 = t2.
  Proof. rewrite elem_equal_content_eqv. exact tuple_eqv_eq. Qed.
End TwoOperands.

Lemma tuple_eqv_sym L t1 t2 : tuple_eqv L t1 t2 -> tuple_eqv L t2 t1.
Proof. intros H j Hj. rewrite span_eq_sym. apply H. exact Hj. Qed.

(* the element-level < computed from the TUPLES alone: same run table, the bytes of a run are
   the concatenated bytes of its fields.  By conversion tuple_less_one L t1 t2 k is
   [comp_lt L _ tup_objs tup_run k t1 t2] and tuple_less L is [prod_lt L _ tup_objs tup_run]; the
   order laws of tuple_less are those of prod_lt. *)
Definition tuple_less_one (L : list param) (t1 t2 : tuple) (k : nat) : bool :=
  match nth k (runs_lex L) RSkip with
  | RSkip => true
  | RManual => span_lt (pty (nth k L pparam0)) (nth k t1 []) (nth k t2 [])
  | REnd e => lex_lt (concat (map (fb t1) (seq k (S (e - k))))) (concat (map (fb t2) (seq k (S (e - k)))))
  end.
Definition tuple_less (L : list param) (t1 t2 : tuple) : bool :=
  forallb (tuple_less_one L t1 t2) (seq 0 (length L)).

Section LessContent.
  Variable L : list param.
  Hypothesis Hwf : wf_plist L = true.
  Variables (t1 t2 : tuple) (fc1 fc2 : list Z) (m1 m2 : mem) (a1 a2 : Z).
  Hypothesis Ht1 : tuple_ok L fc1 0 t1.
  Hypothesis Ht2 : tuple_ok L fc2 0 t2.
  Hypothesis He1 : elem_at L m1 a1 t1.
  Hypothesis He2 : elem_at L m2 a2 t2.

  Theorem elem_less_content :
    elem_less L m1 (ref_fl L t1 a1) m2 (ref_fl L t2 a2) = tuple_less L t1 t2.
  Proof.
    apply forallb_ext_in_. intros k _.
    exact (comp_stored L lxm false (fun k => span_lt (pty (nth k L pparam0))) lex_lt m1 a1 t1 fc1 m2 a2 t2 fc2 k Hwf Ht1 Ht2 He1 He2).
  Qed.
End LessContent.

Lemma span_eq_not_lt t : forall a b, span_eq t a b = true -> span_lt t a b = false.
Proof.
  induction a as [|x a IH]; intros [|y b]; cbn [span_eq span_lt]; try congruence.
  intros H. apply andb_true_iff in H. destruct H as [Ho Hs].
  destruct (obj_lt t x y) eqn:E1; [apply obj_lt_not_eq in E1; congruence|].
  destruct (obj_lt t y x) eqn:E2; [apply obj_lt_not_eq in E2; rewrite obj_eq_sym in E2; congruence|].
  apply IH. exact Hs.
Qed.

(* component 0 of field-wise equal tuples is not less: a MANUAL field by span_eq_not_lt, a run
   because its fields are memcmp-able, so equal objects are equal bytes *)
Lemma eqv_tuples_not_less L : L <> [] -> forall t1 t2, tuple_eqv L t1 t2 -> tuple_less L t1 t2 = false.
Proof.
  intros HL t1 t2 E. apply (prod_lt_false0 L _ tup_objs tup_run HL). unfold comp_lt, comp.
  assert (H0 : (0 < length L)%nat) by (destruct L; [congruence|cbn [length]; lia]).
  destruct (nth 0 (runs_lex L) RSkip) as [| |e] eqn:Ek.
  - destruct (runs_first_not_skip lxm true false L HL Ek).
  - apply span_eq_not_lt, E, H0.
  - destruct (runs_structure lxm true false L) as (_ & _ & Hs1 & _). destruct (Hs1 _ _ Ek) as [Hb Hpred].
    rewrite (eqv_run L t1 t2 0 e E Hb (fun j Hj => lxm_eqm _ (Hpred j Hj))). apply lex_lt_irrefl.
Qed.

Theorem equal_elements_are_not_less L : wf_plist L = true ->
  forall t1 t2 fc1 fc2 m1 m2 a1 a2,
  tuple_ok L fc1 0 t1 -> tuple_ok L fc2 0 t2 -> elem_at L m1 a1 t1 -> elem_at L m2 a2 t2 ->
  elem_equal L m1 (ref_fl L t1 a1) m2 (ref_fl L t2 a2) = true ->
  elem_less L m1 (ref_fl L t1 a1) m2 (ref_fl L t2 a2) = false /\
  elem_less L m2 (ref_fl L t2 a2) m1 (ref_fl L t1 a1) = false.
Proof.
  intros Hwf t1 t2 fc1 fc2 m1 m2 a1 a2 Ht1 Ht2 He1 He2 Heq.
  apply (elem_equal_content_eqv L Hwf t1 t2 fc1 fc2 Ht1 Ht2 m1 m2 a1 a2 He1 He2) in Heq.
  rewrite (elem_less_content L Hwf t1 t2 fc1 fc2 m1 m2 a1 a2 Ht1 Ht2 He1 He2).
  rewrite (elem_less_content L Hwf t2 t1 fc2 fc1 m2 m1 a2 a1 Ht2 Ht1 He2 He1).
  split; apply (eqv_tuples_not_less L (wf_plist_nonempty L Hwf)); [exact Heq|exact (tuple_eqv_sym L _ _ Heq)].
Qed.

Section VectorLevel.
  Variable L : list param.
  Hypothesis Hwf : wf_plist L = true.

  Lemma rep_ref v l offs i : RepO L v l offs -> (i < length l)%nat ->
    tuple_ok L (fixed_counts L (v_fixed v)) 0 (nth i l []) /\
    elem_at L (v_mem v) (nth i offs 0) (nth i l []) /\
    vfl L v (Z.of_nat i) = ref_fl L (nth i l []) (nth i offs 0).
  Proof.
    intros R Hi. destruct (rep_nth L Hwf v l offs i R Hi) as (_ & _ & _ & Ht & He).
    split; [exact Ht|]. split; [exact He|].
    unfold vfl. rewrite (rep_addr L v l offs i R Hi). exact (load_table L Hwf _ _ _ _ Ht He).
  Qed.

  Section TwoVectors.
    Variables (v1 v2 : vec) (l1 l2 : list tuple) (o1 o2 : list Z).
    Hypothesis R1 : RepO L v1 l1 o1.
    Hypothesis R2 : RepO L v2 l2 o2.

    Lemma ref_equal_eqv i j : (i < length l1)%nat -> (j < length l2)%nat ->
      (ref_equal L v1 (Z.of_nat i) v2 (Z.of_nat j) = true <-> tuple_eqv L (nth i l1 []) (nth j l2 [])).
    Proof.
      intros Hi Hj.
      destruct (rep_ref v1 l1 o1 i R1 Hi) as (Ht1 & He1 & Hf1).
      destruct (rep_ref v2 l2 o2 j R2 Hj) as (Ht2 & He2 & Hf2).
      unfold ref_equal. rewrite Hf1, Hf2. exact (elem_equal_content_eqv L Hwf _ _ _ _ Ht1 Ht2 _ _ _ _ He1 He2).
    Qed.

    Lemma ref_less_content i j : (i < length l1)%nat -> (j < length l2)%nat ->
      ref_less L v1 (Z.of_nat i) v2 (Z.of_nat j) = tuple_less L (nth i l1 []) (nth j l2 []).
    Proof.
      intros Hi Hj.
      destruct (rep_ref v1 l1 o1 i R1 Hi) as (Ht1 & He1 & Hf1).
      destruct (rep_ref v2 l2 o2 j R2 Hj) as (Ht2 & He2 & Hf2).
      unfold ref_less. rewrite Hf1, Hf2. exact (elem_less_content L Hwf _ _ _ _ _ _ _ _ Ht1 Ht2 He1 He2).
    Qed.

    Theorem elems_equal_eqv :
      elems_equal L v1 v2 = true <->
      length l1 = length l2 /\ forall i, (i < length l1)%nat -> tuple_eqv L (nth i l1 []) (nth i l2 []).
    Proof.
      unfold elems_equal. rewrite (rep_vsize L v1 l1 o1 R1), (rep_vsize L v2 l2 o2 R2).
      rewrite andb_true_iff, Z.eqb_eq, Nat2Z.inj_iff, forallb_forall, Nat2Z.id.
      split; intros [Hlen Hall]; (split; [exact Hlen|]); intros i Hi.
      - apply (ref_equal_eqv i i); [lia|lia|]. apply Hall. apply in_seq. lia.
      - apply in_seq in Hi. apply (ref_equal_eqv i i); [lia|lia|]. apply Hall. lia.
    Qed.

    (* the element-wise path is taken by lists whose value types are not all memcmp-able or that
       may contain padding, and by operands with different fixed sizes *)
    Theorem vec_equal_eqv_elementwise :
      (forallb eqm L && padfree L && list_eqb (v_fixed v1) (v_fixed v2)) = false ->
      (vec_equal L v1 v2 = true <->
       length l1 = length l2 /\ forall i, (i < length l1)%nat -> tuple_eqv L (nth i l1 []) (nth i l2 [])).
    Proof. intros Hc. unfold vec_equal. rewrite Hc. exact elems_equal_eqv. Qed.
  End TwoVectors.

  Hypothesis Hnf : noflt L.

  Lemma eqv_lists_eq fc1 fc2 l1 l2 : Forall (tuple_ok L fc1 0) l1 -> Forall (tuple_ok L fc2 0) l2 ->
    (length l1 = length l2 /\ forall i, (i < length l1)%nat -> tuple_eqv L (nth i l1 []) (nth i l2 [])) <-> l1 = l2.
  Proof.
    intros H1 H2. rewrite Forall_forall in H1, H2. split.
    - intros [Hlen H]. apply (nth_ext l1 l2 [] [] Hlen). intros i Hi.
      apply (tuple_eqv_eq L _ _ fc1 fc2); [apply H1, nth_In, Hi|apply H2, nth_In; rewrite <- Hlen; exact Hi|exact Hnf|exact (H i Hi)].
    - intros <-. split; [reflexivity|]. intros i _ j _. apply span_eq_refl.
  Qed.

  Theorem ref_equal_content v1 l1 v2 l2 i j : Rep L v1 l1 -> Rep L v2 l2 ->
    (i < length l1)%nat -> (j < length l2)%nat ->
    (ref_equal L v1 (Z.of_nat i) v2 (Z.of_nat j) = true <-> nth i l1 [] = nth j l2 []).
  Proof.
    intros [o1 R1] [o2 R2] Hi Hj. rewrite (ref_equal_eqv v1 v2 l1 l2 o1 o2 R1 R2 i j Hi Hj).
    exact (tuple_eqv_eq L _ _ _ _ (proj1 (rep_ref v1 l1 o1 i R1 Hi)) (proj1 (rep_ref v2 l2 o2 j R2 Hj)) Hnf).
  Qed.
End VectorLevel.
