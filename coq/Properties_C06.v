(* C06 — every stored object is constructed once, destroyed once, never clobbered alive.
   Proved: what every operation constructs and destroys, for every parameter list
   (the C06_emplace_... and C06_destruct_... theorems); the step invariant "held objects -> held objects" and the
   balance over a whole life - construction, ANY valid history, destruction - for every list
   whose value types are non-trivially constructible exactly when non-trivially destructible
   and whose span sizes are of a trivially move-constructible type (cft)
   (C06_step_turns_held_objects_into_held_objects, C06_whole_life_objects_balanced); the objects
   of a ContiguousElement (the C06_element_... theorems).
   On lists without a VaryingSize parameter NO restriction on the history is left
   (C06_whole_life_fixed_lists_every_history, FixedLife.v).
   PARTIAL: erase with elements behind the erased ones on VaryingSize lists of non-trivial types
   (the recorded finding when source and target overlap), a no-duplicates statement over the
   whole event log, copy / move between vectors: correspondence (instrumented value types,
   registry) and the live-object oracle. *)
From Coq Require Import ZArith List Lia.
From Coq Require Import Permutation.
From Cntgs Require Import Layout Mem Vector Spec Rep Refine LifeThm NtRefine LifeHist FixedLife LiveDisjoint
     Elem ElemThm ElemLife.
Import ListNotations.
Local Open Scope Z_scope.

(* emplace_back constructs exactly one object per stored object of every
   non-trivially-constructible field, at the address the placement assigns to it *)
Theorem C06_emplace_constructs_each_object_once : forall L pv vals bid m a,
  (length L <= length pv)%nat -> length vals = length L ->
  keep ctor_of (snd (fst (store_from L pv vals bid m a))) =
    obj_addrs (ntc false) L (fst (place_from L pv (cnts_of vals) a)) (cnts_of vals).
Proof. intros. apply store_from_constructs. Qed.
Print Assumptions C06_emplace_constructs_each_object_once.

(* destruction destroys exactly the objects of the non-trivially-destructible fields *)
Theorem C06_destruct_destroys_each_object_once : forall L xs cnts bid m,
  length xs = length L -> length cnts = length L ->
  keep dtor_of (snd (destruct_fields L (combine xs cnts) bid m)) = obj_addrs ntd L xs cnts.
Proof. intros. apply destruct_fields_destroys. Qed.
Print Assumptions C06_destruct_destroys_each_object_once.

(* constructed once, destroyed once: what pop_back / erase / clear / the destructor destroy
   (found through the load path, counts read back from memory) is exactly what the
   emplacement of that element constructed *)
Theorem C06_emplace_then_destruct_balanced : forall L fixed t bid m a,
  wf_plist L = true -> (forall mv p, In p L -> ntc mv p = ntd p) ->
  tuple_ok L (fixed_counts L fixed) 0 t ->
  let r := store L t bid m a in
  let m' := fst (fst r) in
  keep ctor_of (snd (fst r)) = keep dtor_of (snd (destruct_fields L (fst (load L fixed m' a)) bid m')).
Proof. exact emplace_then_destruct_balanced. Qed.
Print Assumptions C06_emplace_then_destruct_balanced.

Example C06_example :
  let L := [ {| pk := Plain; psz := 2; pal := 2; pty := TUInt |};
             {| pk := Varying; psz := 4; pal := 4; pty := TTrk |};
             {| pk := Plain; psz := 3; pal := 1; pty := TTrk |} ] in
  keep ctor_of (snd (fst (store L [[[2; 0]]; [[1; 1; 1; 1]; [2; 2; 2; 2]]; [[7; 7; 7]]] 0%nat (mfill 170) 8)))
    = [(12, 4); (16, 4); (20, 3)].
Proof. vm_compute. reflexivity. Qed.

(* HISTORY level (LifeHist.v).  One operation, any represented state, every well-formed list
   whose non-trivial types have a non-trivial constructor AND destructor and whose span sizes
   are of a trivially move-constructible type: the objects the operation constructs and destroys turn the
   objects held before into the objects held after - emplace_back constructs exactly the
   objects of the new element where it is placed; pop_back / clear / erase(first, end())
   destroy exactly the objects of the removed elements; a growing reserve constructs every
   object once in the new block (at its old offset) and destroys every object of the old block
   once, finding them through the load path in the MOVED-FROM source (the sizes of the spans
   are still there: relocate_elems_life, tables_after_relocation, load_from_agree).  Objects are (block, offset, size);
   fresh block ids come from a counter. *)
Theorem C06_step_turns_held_objects_into_held_objects : forall L, wf_plist L = true ->
  (forall mv p, In p L -> ntc mv p = ntd p) -> cft L = true ->
  forall junk v nb s o offs,
  RepO L v (s_elems s) offs -> v_cap v = s_cap s -> svalid L (fixed_counts L (v_fixed v)) s o -> lt_ok s o ->
  (exists b0, v_bid v = Some b0 /\ (b0 < nb)%nat) ->
  let v' := fst (fst (lstep L junk (v, nb) o)) in
  let nb' := snd (fst (lstep L junk (v, nb) o)) in
  let evs := snd (lstep L junk (v, nb) o) in
  Rep L v' (s_elems (sstep s o)) /\ v_cap v' = s_cap (sstep s o) /\ v_fixed v' = v_fixed v /\
  (exists b0, v_bid v' = Some b0 /\ (b0 < nb')%nat) /\
  Permutation (live L v (s_elems s) ++ keep born evs) (keep died evs ++ live L v' (s_elems (sstep s o))).
Proof. exact lstep_balance. Qed.
Print Assumptions C06_step_turns_held_objects_into_held_objects.

(* a whole life: construction, ANY valid history (erase only up to the end), destruction:
   the constructions and the destructions coincide as multisets - every object constructed
   (by emplace_back or by a relocation) is destroyed exactly once, nothing else is *)
Theorem C06_whole_life_objects_balanced : forall L cap budget fixed aid junk bid tbid h,
  wf_plist L = true -> (forall mv p, In p L -> ntc mv p = ntd p) -> cft L = true ->
  0 <= cap -> Forall (fun c => 0 <= c) fixed ->
  let v0 := fst (mkvec L cap budget fixed aid junk bid tbid) in
  let s0 := {| s_cap := cap; s_elems := [] |} in
  shist_valid L (fixed_counts L fixed) s0 h -> lt_hist_ok s0 h ->
  let r := lrun L junk (v0, S (Nat.max bid tbid)) h in
  let evs := snd r ++ destroy L (fst (fst r)) in
  Permutation (keep born evs) (keep died evs).
Proof. exact whole_life_objects_balanced. Qed.
Print Assumptions C06_whole_life_objects_balanced.

(* a whole life with erase() in the middle on lists WITHOUT a VaryingSize parameter (FixedLife.v):
   every following element is move-constructed into its new slot and its source destroyed;
   what was live in [to, n) dies, what is live afterwards in [to, n - removed) is born
   (lt_okx = (no VaryingSize) \/ lt_ok) *)
Theorem C06_whole_life_objects_balanced_weaker_restriction : forall L cap budget fixed aid junk bid tbid h,
  wf_plist L = true -> (forall mv p, In p L -> ntc mv p = ntd p) -> cft L = true ->
  0 <= cap -> Forall (fun c => 0 <= c) fixed ->
  let v0 := fst (mkvec L cap budget fixed aid junk bid tbid) in
  let s0 := {| s_cap := cap; s_elems := [] |} in
  shist_valid L (fixed_counts L fixed) s0 h -> lt_hist_okx L s0 h ->
  let r := lrun L junk (v0, S (Nat.max bid tbid)) h in
  let evs := snd r ++ destroy L (fst (fst r)) in
  Permutation (keep born evs) (keep died evs).
Proof. exact whole_life_objects_balanced_x. Qed.
Print Assumptions C06_whole_life_objects_balanced_weaker_restriction.

Theorem C06_whole_life_fixed_lists_every_history : forall L cap budget fixed aid junk bid tbid h,
  wf_plist L = true -> has_varying L = false -> (forall mv p, In p L -> ntc mv p = ntd p) -> cft L = true ->
  0 <= cap -> Forall (fun c => 0 <= c) fixed ->
  let v0 := fst (mkvec L cap budget fixed aid junk bid tbid) in
  let s0 := {| s_cap := cap; s_elems := [] |} in
  shist_valid L (fixed_counts L fixed) s0 h ->
  let r := lrun L junk (v0, S (Nat.max bid tbid)) h in
  let evs := snd r ++ destroy L (fst (fst r)) in
  Permutation (keep born evs) (keep died evs).
Proof. exact whole_life_fixed_list_every_history. Qed.
Print Assumptions C06_whole_life_fixed_lists_every_history.

(* one step: the objects the vector holds before, plus what the operation constructs, are
   what it destroys plus the objects the vector holds afterwards *)
Theorem C06_step_balance_weaker_restriction : forall L, wf_plist L = true ->
  (forall mv p, In p L -> ntc mv p = ntd p) -> cft L = true ->
  forall junk v nb s o offs,
  RepO L v (s_elems s) offs -> v_cap v = s_cap s -> svalid L (fixed_counts L (v_fixed v)) s o -> lt_okx L s o ->
  (exists b0, v_bid v = Some b0 /\ (b0 < nb)%nat) ->
  let v' := fst (fst (lstep L junk (v, nb) o)) in
  let nb' := snd (fst (lstep L junk (v, nb) o)) in
  let evs := snd (lstep L junk (v, nb) o) in
  Rep L v' (s_elems (sstep s o)) /\ v_cap v' = s_cap (sstep s o) /\ v_fixed v' = v_fixed v /\
  (exists b0, v_bid v' = Some b0 /\ (b0 < nb')%nat) /\
  Permutation (live L v (s_elems s) ++ keep born evs) (keep died evs ++ live L v' (s_elems (sstep s o))).
Proof. exact lstep_balance_x. Qed.
Print Assumptions C06_step_balance_weaker_restriction.

(* satisfiable: (uint32, FixedSize<Tracked 8-byte type> x 2), four elements, erase(1),
   erase(0, 1), reserve: 8 constructions by emplace_back, 2*2 + 2*2 by the two erases,
   2*2 by the relocation *)
Definition c06fL : list param :=
  [ {| pk := Plain; psz := 4; pal := 4; pty := TUInt |};
    {| pk := Fixed; psz := 8; pal := 8; pty := TTrk |} ].
Definition c06ft (b : Z) : tuple := [[[b; 0; 0; 0]]; [[b; 1; 0; 0; 0; 0; 0; 0]; [b; 2; 0; 0; 0; 0; 0; 0]]].
Definition c06fH : list sop :=
  [SEmplace (c06ft 1); SEmplace (c06ft 2); SEmplace (c06ft 3); SEmplace (c06ft 4); SErase 1; SEraseRange 0 1; SReserve 6 0].
Example C06_whole_life_fixed_lists_applies :
  wf_plist c06fL = true /\ has_varying c06fL = false /\ all_triv c06fL = false /\
  (forall mv p, In p c06fL -> ntc mv p = ntd p) /\ cft c06fL = true /\
  shist_valid c06fL (fixed_counts c06fL [2]) {| s_cap := 4; s_elems := [] |} c06fH /\
  ~ lt_hist_ok {| s_cap := 4; s_elems := [] |} c06fH /\
  (let r := lrun c06fL (fun _ => 170) (fst (mkvec c06fL 4 0 [2] 0 (fun _ => 170) 0%nat 1%nat), 2%nat) c06fH in
   length (keep born (snd r)) = 20%nat /\
   length (keep died (snd r ++ destroy c06fL (fst (fst r)))) = 20%nat).
Proof.
  split; [reflexivity|]. split; [reflexivity|]. split; [reflexivity|]. split.
  { intros mv p [<-|[<-|[]]]; destruct mv; reflexivity. }
  split; [reflexivity|]. split; [|split].
  - cbn. repeat split; try lia; try discriminate; repeat constructor.
  - cbn. intros (_ & _ & _ & _ & H & _). lia.
  - vm_compute. split; reflexivity.
Qed.

(* "its storage is never overwritten by another object while it is alive" at the level of states: in EVERY represented state the objects a vector holds - every object
   of every selected field of every element - lie one behind the other inside
   [0, data_end()) of the block (LiveDisjoint.v: ochain), hence occupy pairwise disjoint byte
   ranges, and no object occurs twice: the multiset `live` of the balance theorems is a set *)
Theorem C06_held_objects_lie_one_behind_the_other : forall L, wf_plist L = true ->
  forall sel v l offs, RepO L v l offs -> ochain 0 (vobjs sel L offs l) (dend L v).
Proof. exact held_objects_chain. Qed.
Print Assumptions C06_held_objects_lie_one_behind_the_other.

Theorem C06_one_behind_the_other_means_disjoint : forall objs lo hi, ochain lo objs hi ->
  ForallOrdPairs (fun a b => fst a + snd a <= fst b) objs /\ NoDup objs /\
  Forall (fun b => lo <= fst b /\ fst b + snd b <= hi) objs.
Proof.
  intros objs lo hi H. split; [exact (ochain_disjoint _ _ _ H)|]. split; [exact (ochain_nodup _ _ _ H)|exact (ochain_all_ge _ _ _ H)].
Qed.
Print Assumptions C06_one_behind_the_other_means_disjoint.

Theorem C06_live_objects_form_a_set : forall L, wf_plist L = true ->
  forall v l offs, RepO L v l offs -> NoDup (live L v l).
Proof. exact live_nodup. Qed.
Print Assumptions C06_live_objects_form_a_set.

(* the held objects are disjoint after every valid history from construction
   (NtRefine.nt_hist_okx) *)
Theorem C06_held_objects_disjoint_after_every_history : forall L cap budget fixed aid junk bid tbid h,
  wf_plist L = true -> 0 <= cap -> Forall (fun c => 0 <= c) fixed ->
  let v0 := fst (mkvec L cap budget fixed aid junk bid tbid) in
  let s0 := {| s_cap := cap; s_elems := [] |} in
  shist_valid L (fixed_counts L fixed) s0 h -> nt_hist_okx L s0 h ->
  let v := vrun L junk v0 h in
  let l := s_elems (srun s0 h) in
  exists offs, RepO L v l offs /\
    forall sel, ForallOrdPairs (fun a b => fst a + snd a <= fst b) (vobjs sel L offs l) /\
                Forall (fun b => 0 <= fst b /\ fst b + snd b <= dend L v) (vobjs sel L offs l).
Proof.
  intros L cap budget fixed aid junk bid tbid h Hwf Hcap Hfx. cbv zeta. intros Hv Hn.
  destruct (rep_every_history_nt L cap budget fixed aid junk bid tbid h Hwf Hcap Hfx Hv Hn) as [offs R].
  exists offs. split; [exact R|]. intros sel.
  pose proof (held_objects_chain L Hwf sel _ _ offs R) as H.
  split; [exact (ochain_disjoint _ _ _ H)|exact (ochain_all_ge _ _ _ H)].
Qed.
Print Assumptions C06_held_objects_disjoint_after_every_history.

(* the statement is about something: after the history of C06_whole_life_fixed_lists_applies the
   vector holds two elements with two instrumented 8-byte objects each, at 8, 16 and 32, 40 *)
Example C06_held_objects_disjoint_applies :
  let l := s_elems (srun {| s_cap := 4; s_elems := [] |} c06fH) in
  nt_hist_okx c06fL {| s_cap := 4; s_elems := [] |} c06fH /\
  vobjs (ntc true) c06fL (cpos c06fL 0 l) l = [(8, 8); (16, 8); (32, 8); (40, 8)].
Proof.
  cbv zeta. split; [apply nt_hist_okx_fixed; reflexivity|]. vm_compute. reflexivity.
Qed.

(* erase(first, first): no object is constructed, destroyed or touched, for every list and every
   position - also in the middle of a VaryingSize vector of non-trivial types, where a shift by
   zero elements would construct every following object on top of itself (seeded change C06m) *)
Theorem C06_erase_of_an_empty_range_touches_no_object : forall L v i, erase_range L v i i = (v, []).
Proof. exact erase_empty_range_identity. Qed.
Print Assumptions C06_erase_of_an_empty_range_touches_no_object.

(* The objects of a ContiguousElement.  An element constructed from a reference
   (value_type{ref}: copy form, value_type{std::move(ref)}: move form) constructs - through the value type's copy / move constructor - exactly the objects
   of the fields whose constructor of that form is not trivial, at the placement of the tuple
   at offset 0 of its own block, and destroys nothing; its destructor destroys exactly the
   objects of the non-trivially destructible fields at those addresses.  When the value types
   are non-trivially constructible exactly when non-trivially destructible: every object of
   the element is constructed once and destroyed once. *)
Theorem C06_element_construction_constructs_each_object_once : forall L t fc, tuple_ok L fc 0 t -> forall mv ms a sb aid junk nb,
  let evs := snd (elem_from_ref mv L ms (ref_fl L t a) sb aid junk nb) in
  keep born evs = tag nb (eobjs (ntc mv) L 0 t) /\ keep died evs = [].
Proof. exact elem_from_ref_objects. Qed.
Print Assumptions C06_element_construction_constructs_each_object_once.

Theorem C06_element_destruction_destroys_each_object_once : forall L t fc, tuple_ok L fc 0 t -> forall e b, e_bid e = Some b -> e_fl e = ref_fl L t 0 ->
  keep died (elem_destroy L e) = tag b (eobjs ntd L 0 t) /\ keep born (elem_destroy L e) = [].
Proof. intros L t fc _. exact (elem_destroy_objects L t). Qed.
Print Assumptions C06_element_destruction_destroys_each_object_once.

Theorem C06_element_life_balanced : forall L t fc, tuple_ok L fc 0 t -> forall mv ms a sb aid junk nb,
  (forall p, In p L -> ntc mv p = ntd p) ->
  let r := elem_from_ref mv L ms (ref_fl L t a) sb aid junk nb in
  let e := snd (fst r) in
  keep born (snd r) = keep died (elem_destroy L e) /\ keep died (snd r) = [] /\ keep born (elem_destroy L e) = [].
Proof. exact elem_life_balanced. Qed.
Print Assumptions C06_element_life_balanced.
