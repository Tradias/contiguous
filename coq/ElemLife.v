(* ElemLife.v — the life of a ContiguousElement made from a reference.  Objects (C06): the
   constructor, in its copy or move form, constructs exactly the objects of the fields whose
   constructor of that form is not trivial, at the placement of the tuple at offset 0 of the
   element's own block; the destructor destroys exactly the objects of the non-trivially
   destructible fields at the same addresses.  Block (C07): it is requested once and returned
   once. *)
From Coq Require Import ZArith List.
From Cntgs Require Import Layout Vector Elem Spec Rep ElemLemmas StableThm WorldThm LifeThm ElemThm LifeHist.
Import ListNotations.
Local Open Scope Z_scope.

Section ElemLife.
  Variable L : list param.
  Variables (t : tuple) (fc : list Z).
  Hypothesis Ht : tuple_ok L fc 0 t.

  Let Hcn : length (cnts_of t) = length L := cnts_length L t fc Ht.

  (* value_type{reference} - copy form and move form *)
  Theorem elem_from_ref_objects mv ms a sb aid junk nb :
    let evs := snd (elem_from_ref mv L ms (ref_fl L t a) sb aid junk nb) in
    keep born evs = tag nb (eobjs (ntc mv) L 0 t) /\ keep died evs = [].
  Proof.
    cbv zeta. destruct (elem_from_ref_shape mv L ms (ref_fl L t a) sb aid junk nb) as (ms1 & md1 & ->).
    rewrite (fl_at0_ref_fl L t a fc Ht). cbn [snd keep born died].
    apply construct_fields_born. rewrite !place_fst_length by exact Hcn. reflexivity.
  Qed.

  Theorem elem_destroy_objects e b : e_bid e = Some b -> e_fl e = ref_fl L t 0 ->
    keep died (elem_destroy L e) = tag b (eobjs ntd L 0 t) /\ keep born (elem_destroy L e) = [].
  Proof.
    intros Hb Hf. unfold elem_destroy, elem_destruct, elem_dealloc. rewrite Hb.
    destruct (all_dtriv L) eqn:Hd.
    - cbn [app keep born died]. unfold eobjs. rewrite (obj_addrs_none ntd L _ _ Hd). split; reflexivity.
    - rewrite Hf.
      pose proof (destruct_fields_died L (fst (place L (cnts_of t) 0)) (cnts_of t) b (e_mem e)) as H.
      fold (ref_fl L t 0) in H. destruct (destruct_fields L (ref_fl L t 0) b (e_mem e)) as [m1 evs].
      rewrite !keep_app. cbn [keep born died]. rewrite !app_nil_r. exact H.
  Qed.

  Theorem elem_life_balanced mv ms a sb aid junk nb :
    (forall p, In p L -> ntc mv p = ntd p) ->
    let r := elem_from_ref mv L ms (ref_fl L t a) sb aid junk nb in
    let e := snd (fst r) in
    keep born (snd r) = keep died (elem_destroy L e) /\ keep died (snd r) = [] /\ keep born (elem_destroy L e) = [].
  Proof.
    intros Hs. cbv zeta.
    destruct (elem_from_ref_objects mv ms a sb aid junk nb) as [B D]. rewrite B, D.
    destruct (elem_from_ref_shape mv L ms (ref_fl L t a) sb aid junk nb) as (ms1 & md1 & ->). cbn [fst snd].
    set (e := Build_elem _ _ _ _ _).
    destruct (elem_destroy_objects e nb eq_refl (fl_at0_ref_fl L t a fc Ht)) as [D2 B2].
    rewrite D2, B2. unfold eobjs. rewrite (obj_addrs_same _ _ L _ _ Hs). repeat split.
  Qed.
End ElemLife.

(* C07: one block is requested from the element's allocator and returned to it with the unit
   size and count it was requested with; nothing else is allocated or freed *)
Theorem elem_life_ledger mv L ms fls sb aid junk nb :
  let r := elem_from_ref mv L ms fls sb aid junk nb in
  let e := snd (fst r) in
  ledger [] (snd r) = Some [(nb, (aid, SA L, units L (ref_bytes L fls)))] /\
  ledger [] (snd r ++ elem_destroy L e) = Some [].
Proof.
  cbv zeta. destruct (elem_from_ref_shape mv L ms fls sb aid junk nb) as (ms1 & md1 & ->). cbn [fst snd].
  set (e := Build_elem _ _ _ _ _). set (evc := snd (construct_fields _ _ _ _ _ _ _ _)).
  assert (Hc : no_alloc evc) by apply construct_fields_no_alloc.
  split; cbn [app ledger has_blk existsb].
  - apply no_alloc_ledger. exact Hc.
  - unfold elem_destroy. pose proof (elem_destruct_no_alloc L e) as Hd.
    destruct (elem_destruct L e) as [e1 evd]. cbn [snd] in Hd.
    rewrite (ledger_app _ evc _ _ (no_alloc_ledger evc _ Hc)), (ledger_app _ evd _ _ (no_alloc_ledger evd _ Hd)).
    cbn [elem_dealloc e e_bid e_aid e_units ledger find_blk fst snd].
    rewrite Nat.eqb_refl, !Z.eqb_refl. cbn [andb drop_blk filter fst negb]. rewrite Nat.eqb_refl. reflexivity.
Qed.
