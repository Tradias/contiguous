(* C15 — emplace_back stores T(source item) whatever form the source takes.
   Proved over the modelled type universe (bool, unsigned / signed integers and enumerations
   of every width, float / double, pointers into a class hierarchy with a non-zero base
   offset, trivially copyable classes with a converting constructor / conversion operator,
   a class with user-provided copy and move, and a handle whose conversion from a raw source
   adopts from an rvalue) and all ten source forms x lvalue / rvalue: whichever path the
   dispatch takes (memcpy, uninitialized_copy, uninitialized_move), the stored objects are item
   by item the representation of T(source item) - T(std::move(source item)) where the dispatch
   moves -, min(n, size of the source) items are stored; the memcpy path is only taken where
   construction keeps the representation; lvalue ranges are never moved from, rvalue ranges and
   move_iterators exactly once per consumed item.  The pinned tree's rule for the memcpy path
   (memcpy_compatible_old) is refuted. *)
From Coq Require Import ZArith List Bool.
From Cntgs Require Import Construct ConstructThm.
Import ListNotations.
Local Open Scope Z_scope.

Theorem C15_memcpy_path_is_sound : forall T U v,
  wf_vty T -> memcpy_compatible T U = true -> in_range U v ->
  repr T (conv U T v) = repr U v.
Proof. exact memcpy_compatible_sound. Qed.
Print Assumptions C15_memcpy_path_is_sound.

(* T(item) where the item is consumed as an lvalue, T(std::move(item)) where the dispatch moves
   (rvalue ranges that are not memcpy'd, move_iterators): convm; the two differ for one pair of
   the universe only (Handle <- Raw, a trivially copyable source whose conversion adopts from
   an rvalue), C15_value_category_matters_only_there *)
Theorem C15_stored_objects_are_converted_items : forall f rv T U src n,
  wf_vty T -> Forall (in_range U) src ->
  stored f rv T U src n = map (fun v => repr T (convm (moves f rv T U) U T v)) (firstn n src) /\
  length (stored f rv T U src n) = Nat.min n (length src).
Proof. exact stored_is_converted. Qed.
Print Assumptions C15_stored_objects_are_converted_items.

Theorem C15_value_category_matters_only_there : forall b U T v,
  ~ (T = VHandle /\ U = VRaw) -> convm b U T v = conv U T v.
Proof. exact value_category_irrelevant. Qed.
Print Assumptions C15_value_category_matters_only_there.

Example C15_move_iterator_adopts :
  stored FMoveIter false VHandle VRaw [7; 9] 2 = [[7;0;0;0;1;0;0;0]; [9;0;0;0;1;0;0;0]] /\
  stored FContigIter false VHandle VRaw [7; 9] 2 = [[7;0;0;0;0;0;0;0]; [9;0;0;0;0;0;0;0]].
Proof. vm_compute. split; reflexivity. Qed.

Theorem C15_lvalue_sources_are_not_moved_from : forall f T U src n, is_range f = true ->
  moved_from f false T U src n = repeat 0 (length src).
Proof. exact lvalue_sources_untouched. Qed.
Print Assumptions C15_lvalue_sources_are_not_moved_from.

Theorem C15_rvalue_ranges_are_moved_from_once : forall f T U src n, is_range f = true ->
  (has_data_and_size f && memcpy_compatible T U) = false ->
  moved_from f true T U src n = repeat 1 (Nat.min n (length src)) ++ repeat 0 (length src - n).
Proof. exact rvalue_range_moved_once. Qed.
Print Assumptions C15_rvalue_ranges_are_moved_from_once.

Theorem C15_move_iterators_are_moved_from_once : forall T U src n,
  moved_from FMoveIter false T U src n = repeat 1 (Nat.min n (length src)) ++ repeat 0 (length src - n).
Proof. exact move_iterator_moved_once. Qed.
Print Assumptions C15_move_iterators_are_moved_from_once.

(* the pinned tree's MEMCPY_COMPATIBLE (equal size, trivially copyable, equal
   floating-point-ness) does not have this property *)
Theorem C15_pinned_rule_refuted :
  exists T U v, memcpy_compatible_old T U = true /\ in_range U v /\ repr T (conv U T v) <> repr U v.
Proof. exact memcpy_compatible_old_refuted. Qed.
Print Assumptions C15_pinned_rule_refuted.

(* non-vacuity: the fast path is taken for the cases it is meant for, and not for the
   three families the pinned rule got wrong *)
Example C15_examples :
  memcpy_compatible (VUInt 4) (VSInt 4) = true /\ memcpy_compatible (VSInt 8) (VEnumS 8) = true /\
  memcpy_compatible (VFloat 4) (VFloat 4) = true /\ memcpy_compatible (VPtr 0) (VPtr 0) = true /\
  memcpy_compatible VBool (VUInt 1) = false /\ memcpy_compatible VCels VFahr = false /\
  memcpy_compatible (VSInt 4) VWrap = false /\ memcpy_compatible (VPtr 2) (VPtr 0) = false /\
  memcpy_compatible (VUInt 4) (VFloat 4) = false /\
  stored FVector false VBool (VUInt 1) [2; 0; 255] 3 = [[1]; [0]; [1]] /\
  stored FVector false (VPtr 2) (VPtr 0) [0; 24] 2 = [[8;0;0;0;0;0;0;0]; [32;0;0;0;0;0;0;0]].
Proof. vm_compute. repeat split. Qed.
