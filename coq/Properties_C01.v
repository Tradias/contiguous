(* C01 — a vector behaves like a plain sequence of tuples under any operation history.
   The proofs are in Refine.v (trivially relocatable lists) and NtRefine.v (every list); the
   two examples are checked here by computation. *)
From Coq Require Import ZArith Lia List.
From Cntgs Require Import Layout Mem Vector Spec Rep Refine NtRefine.
Import ListNotations.
Local Open Scope Z_scope.

(* For EVERY well-formed parameter list whose value types are trivially relocatable,
   every capacity, fixed sizes, junk contents of fresh memory and EVERY history of
   emplace_back / pop_back / erase / erase(first,last) / clear / reserve that respects the
   documented preconditions: size(), capacity() and every field of every element, read
   back through the load path from the bytes of the block, are those of a plain list of
   tuples subjected to the same operations. *)
Theorem C01_refinement : forall L cap budget fixed aid junk bid tbid h,
  wf_plist L = true -> all_triv L = true -> 0 <= cap -> Forall (fun c => 0 <= c) fixed ->
  let v0 := fst (mkvec L cap budget fixed aid junk bid tbid) in
  let s0 := {| s_cap := cap; s_elems := [] |} in
  shist_valid L (fixed_counts L fixed) s0 h ->
  let v := vrun L junk v0 h in
  let s := srun s0 h in
  vsize L v = Z.of_nat (length (s_elems s)) /\
  v_cap v = s_cap s /\
  forall i, (i < length (s_elems s))%nat ->
    read_elem L (v_fixed v) (v_mem v) (eaddr L v (Z.of_nat i)) = nth i (s_elems s) [].
Proof. exact refinement_from_construction. Qed.
Print Assumptions C01_refinement.

(* ... and the same after every prefix of the history, i.e. after every single step *)
Theorem C01_refinement_every_step : forall L cap budget fixed aid junk bid tbid h1 h2,
  wf_plist L = true -> all_triv L = true -> 0 <= cap -> Forall (fun c => 0 <= c) fixed ->
  let v0 := fst (mkvec L cap budget fixed aid junk bid tbid) in
  let s0 := {| s_cap := cap; s_elems := [] |} in
  shist_valid L (fixed_counts L fixed) s0 (h1 ++ h2) ->
  let v := vrun L junk v0 h1 in
  let s := srun s0 h1 in
  vsize L v = Z.of_nat (length (s_elems s)) /\
  v_cap v = s_cap s /\
  forall i, (i < length (s_elems s))%nat ->
    read_elem L (v_fixed v) (v_mem v) (eaddr L v (Z.of_nat i)) = nth i (s_elems s) [].
Proof. exact refinement_every_prefix. Qed.
Print Assumptions C01_refinement_every_step.

(* one step: the representation invariant is preserved and the capacity follows the spec *)
Theorem C01_step : forall L junk v s o,
  wf_plist L = true -> all_triv L = true ->
  Rep L v (s_elems s) -> v_cap v = s_cap s -> svalid L (fixed_counts L (v_fixed v)) s o ->
  Rep L (vstep L junk v o) (s_elems (sstep s o)) /\ v_cap (vstep L junk v o) = s_cap (sstep s o).
Proof. exact step_refines. Qed.
Print Assumptions C01_step.

(* non-vacuity: a valid history on a mixed list with unequal elements, an erase in front
   of a larger element, a reserve and an emplace_back after the erase *)
Definition exL : list param :=
  [ {| pk := Plain; psz := 2; pal := 1; pty := TUInt |};
    {| pk := Varying; psz := 3; pal := 4; pty := TBlob |};
    {| pk := Fixed; psz := 1; pal := 1; pty := TU8 |} ].
Definition exH : list sop :=
  [ SEmplace [[[1; 0]]; [[7; 7; 7]]; [[5]; [6]]];
    SEmplace [[[3; 0]]; [[1; 1; 1]; [2; 2; 2]; [3; 3; 3]]; [[8]; [9]]];
    SEmplace [[[0; 0]]; []; [[4]; [4]]];
    SErase 0;
    SReserve 9 64;
    SEmplace [[[2; 0]]; [[9; 9; 9]; [8; 8; 8]]; [[1]; [2]]];
    SEraseRange 1 2;
    SPopBack ].
Example C01_example :
  wf_plist exL = true /\ all_triv exL = true /\
  shist_valid exL (fixed_counts exL [2]) {| s_cap := 3; s_elems := [] |} exH /\
  let v := vrun exL (mfill 170) (fst (mkvec exL 3 30 [2] 1 (mfill 170) 0%nat 1%nat)) exH in
  vsize exL v = 1 /\
  read_elem exL (v_fixed v) (v_mem v) (eaddr exL v 0) = [[[3; 0]]; [[1; 1; 1]; [2; 2; 2]; [3; 3; 3]]; [[8]; [9]]].
Proof.
  split; [reflexivity|]. split; [reflexivity|]. split.
  - cbn. repeat (split; try lia; try (repeat constructor)); discriminate.
  - vm_compute. split; reflexivity.
Qed.

(* ... and for EVERY well-formed parameter list, NON-trivial value types included
   (NtRefine.v): destruction scribbles over the destroyed objects only (pop_back, clear,
   erase(first, end())), relocation through copy / move constructors on reserve reproduces
   every byte (objects are visited in increasing address order, the moved-from bytes left in
   the source lie behind the cursor).  The only operation not covered for non-trivial lists
   is erase() with elements behind the erased ones (nt_ok): it re-emplaces every following
   element and is the recorded known finding erase-nontrivial-overlap. *)
Theorem C01_refinement_every_list : forall L cap budget fixed aid junk bid tbid h,
  wf_plist L = true -> 0 <= cap -> Forall (fun c => 0 <= c) fixed ->
  let v0 := fst (mkvec L cap budget fixed aid junk bid tbid) in
  let s0 := {| s_cap := cap; s_elems := [] |} in
  shist_valid L (fixed_counts L fixed) s0 h -> nt_hist_ok L s0 h ->
  let v := vrun L junk v0 h in
  let s := srun s0 h in
  vsize L v = Z.of_nat (length (s_elems s)) /\
  v_cap v = s_cap s /\
  forall i, (i < length (s_elems s))%nat ->
    read_elem L (v_fixed v) (v_mem v) (eaddr L v (Z.of_nat i)) = nth i (s_elems s) [].
Proof. exact refinement_every_list. Qed.
Print Assumptions C01_refinement_every_list.

Theorem C01_step_every_list : forall L, wf_plist L = true -> forall junk v s o,
  Rep L v (s_elems s) -> v_cap v = s_cap s -> svalid L (fixed_counts L (v_fixed v)) s o -> nt_ok L s o ->
  Rep L (vstep L junk v o) (s_elems (sstep s o)) /\ v_cap (vstep L junk v o) = s_cap (sstep s o) /\
  v_fixed (vstep L junk v o) = v_fixed v.
Proof. exact vstep_rep_nt. Qed.
Print Assumptions C01_step_every_list.

(* ... and on a list WITHOUT a VaryingSize parameter no restriction is left at all: erase()
   with elements behind the erased ones move-constructs them forward field by field
   (FixedErase.v: the loop invariant `linv` over the fixed stride: after j moves slot to+r
   holds the old element from+r, for every r < j), whatever the value types are.  nt_okx = (no VaryingSize) \/ nt_ok. *)
Theorem C01_refinement_every_list_weaker_restriction : forall L cap budget fixed aid junk bid tbid h,
  wf_plist L = true -> 0 <= cap -> Forall (fun c => 0 <= c) fixed ->
  let v0 := fst (mkvec L cap budget fixed aid junk bid tbid) in
  let s0 := {| s_cap := cap; s_elems := [] |} in
  shist_valid L (fixed_counts L fixed) s0 h -> nt_hist_okx L s0 h ->
  let v := vrun L junk v0 h in
  let s := srun s0 h in
  vsize L v = Z.of_nat (length (s_elems s)) /\
  v_cap v = s_cap s /\
  forall i, (i < length (s_elems s))%nat ->
    read_elem L (v_fixed v) (v_mem v) (eaddr L v (Z.of_nat i)) = nth i (s_elems s) [].
Proof. exact refinement_every_list_x. Qed.
Print Assumptions C01_refinement_every_list_weaker_restriction.

Theorem C01_fixed_size_lists_every_history : forall L cap budget fixed aid junk bid tbid h,
  wf_plist L = true -> has_varying L = false -> 0 <= cap -> Forall (fun c => 0 <= c) fixed ->
  let v0 := fst (mkvec L cap budget fixed aid junk bid tbid) in
  let s0 := {| s_cap := cap; s_elems := [] |} in
  shist_valid L (fixed_counts L fixed) s0 h ->
  let v := vrun L junk v0 h in
  let s := srun s0 h in
  vsize L v = Z.of_nat (length (s_elems s)) /\
  v_cap v = s_cap s /\
  forall i, (i < length (s_elems s))%nat ->
    read_elem L (v_fixed v) (v_mem v) (eaddr L v (Z.of_nat i)) = nth i (s_elems s) [].
Proof. exact refinement_fixed_list_every_history. Qed.
Print Assumptions C01_fixed_size_lists_every_history.

Theorem C01_step_every_list_weaker_restriction : forall L, wf_plist L = true -> forall junk v s o,
  Rep L v (s_elems s) -> v_cap v = s_cap s -> svalid L (fixed_counts L (v_fixed v)) s o -> nt_okx L s o ->
  Rep L (vstep L junk v o) (s_elems (sstep s o)) /\ v_cap (vstep L junk v o) = s_cap (sstep s o) /\
  v_fixed (vstep L junk v o) = v_fixed v.
Proof. exact vstep_rep_ntx. Qed.
Print Assumptions C01_step_every_list_weaker_restriction.

(* satisfiable with a non-trivially relocatable list and erase() in the middle:
   (uint32, FixedSize<Tracked 8-byte type> x 2), four elements, erase(1), erase(0, 1) *)
Definition c01fL : list param :=
  [ {| pk := Plain; psz := 4; pal := 4; pty := TUInt |};
    {| pk := Fixed; psz := 8; pal := 8; pty := TTrk |} ].
Definition c01ft (b : Z) : tuple := [[[b; 0; 0; 0]]; [[b; 1; 0; 0; 0; 0; 0; 0]; [b; 2; 0; 0; 0; 0; 0; 0]]].
Definition c01fH : list sop :=
  [SEmplace (c01ft 1); SEmplace (c01ft 2); SEmplace (c01ft 3); SEmplace (c01ft 4); SErase 1; SEraseRange 0 1].
Example C01_fixed_size_lists_every_history_applies :
  wf_plist c01fL = true /\ has_varying c01fL = false /\ all_triv c01fL = false /\
  shist_valid c01fL (fixed_counts c01fL [2]) {| s_cap := 4; s_elems := [] |} c01fH /\
  ~ nt_hist_ok c01fL {| s_cap := 4; s_elems := [] |} c01fH /\
  s_elems (srun {| s_cap := 4; s_elems := [] |} c01fH) = [c01ft 3; c01ft 4] /\
  (let v := vrun c01fL (fun _ => 170) (fst (mkvec c01fL 4 0 [2] 0 (fun _ => 170) 1%nat 2%nat)) c01fH in
   read_elem c01fL (v_fixed v) (v_mem v) (eaddr c01fL v 1) = c01ft 4).
Proof.
  split; [reflexivity|]. split; [reflexivity|]. split; [reflexivity|]. split; [|split; [|split]].
  - cbn. repeat split; try lia; try discriminate; repeat constructor.
  - cbn. unfold nt_ok. cbn. intros (_ & _ & _ & _ & [H|H] & _); [discriminate|lia].
  - reflexivity.
  - vm_compute. reflexivity.
Qed.
