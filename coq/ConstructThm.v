(* ConstructThm.v — emplace_back from a source range (C15): whenever the dispatch copies bytes,
   the bytes are the object representation of T(source item) (memcpy_compatible_sound); on every
   path the stored objects are the converted items (stored_is_converted); which sources are
   moved from, and how often; the rule memcpy_compatible_old is refuted. *)
From Coq Require Import ZArith List Bool Lia.
From Cntgs Require Import ListAux Mem Construct.
Import ListNotations.
Local Open Scope Z_scope.

Definition wf_vty (t : vty) : Prop := 0 < vsz t.

Lemma vty_eqb_eq a b : vty_eqb a b = true -> a = b.
Proof.
  destruct a, b; cbn [vty_eqb]; intros H; try discriminate; try reflexivity;
    apply Z.eqb_eq in H; subst; reflexivity.
Qed.

Lemma pow8_pos n : 0 < n -> 0 < 2 ^ (8 * n).
Proof. intros H. apply Z.pow_pos_nonneg; lia. Qed.

Lemma wrapu_idem n v : 0 < n -> wrapu n (wrapu n v) = wrapu n v.
Proof. intros H. unfold wrapu. apply Z.mod_mod. pose proof (pow8_pos n H). lia. Qed.

Lemma wrapu_wraps n v : 0 < n -> wrapu n (wraps n v) = wrapu n v.
Proof.
  intros H. unfold wraps. pose proof (pow8_pos n H) as Hp.
  destruct (wrapu n v <? 2 ^ (8 * n - 1)); [apply wrapu_idem; exact H|].
  unfold wrapu.
  replace (v mod 2 ^ (8 * n) - 2 ^ (8 * n)) with (v mod 2 ^ (8 * n) + (-1) * 2 ^ (8 * n)) by lia.
  rewrite Z_mod_plus_full. apply Z.mod_mod. lia.
Qed.

Lemma wrapu_small n v : 0 < n -> 0 <= v < 2 ^ (8 * n) -> wrapu n v = v.
Proof. intros H Hv. unfold wrapu. apply Z.mod_small. exact Hv. Qed.

Lemma repr_conv_same T v : wf_vty T -> trivially_copyable T = true -> in_range T v ->
  repr T (conv T T v) = repr T v.
Proof.
  unfold wf_vty. intros Hw Htc Hr. destruct T; cbn [conv repr vsz in_range trivially_copyable] in *;
    try discriminate; try reflexivity.
  - destruct Hr as [-> | ->]; reflexivity.
  - rewrite wrapu_idem by lia. reflexivity.
  - rewrite wrapu_wraps by lia. reflexivity.
  - rewrite wrapu_idem by lia. reflexivity.
  - rewrite wrapu_wraps by lia. reflexivity.
  - replace (v + base_off cls - base_off cls) with v by lia. reflexivity.
Qed.

Definition intlike (t : vty) : bool := is_integral t || is_enum t.

Lemma repr_intlike T v : intlike T = true -> repr T v = enc (Z.to_nat (vsz T)) (wrapu (vsz T) v).
Proof. destruct T; cbn [intlike is_integral is_enum orb repr]; intros H; try discriminate; reflexivity. Qed.

(* only the conversion operator of Wrap makes [conv] look at the source type *)
Lemma conv_not_wrap {A} U (x y : A) : intlike U = true -> match U with VWrap => x | _ => y end = y.
Proof. destruct U; try reflexivity. discriminate. Qed.

(* integral / enumeration types of equal size: conversion keeps the low bytes (two's
   complement), unless the target is bool *)
Lemma repr_conv_intlike T U v : wf_vty T -> vsz T = vsz U ->
  intlike T = true -> intlike U = true -> T <> VBool ->
  repr T (conv U T v) = repr U v.
Proof.
  unfold wf_vty. intros Hw Hs HT HU Hnb.
  rewrite (repr_intlike T) by exact HT. rewrite (repr_intlike U) by exact HU.
  rewrite <- Hs. f_equal.
  destruct T; try discriminate; try congruence; cbn [vsz conv] in *; rewrite conv_not_wrap by exact HU;
    first [apply wrapu_idem; lia | apply wrapu_wraps; lia].
Qed.

Lemma memcpy_compatible_spec T U : memcpy_compatible T U = true ->
  vsz T = vsz U /\ trivially_copyable T = true /\
  (T = U \/ intlike T = true /\ intlike U = true /\ (T = VBool -> U = VBool)).
Proof.
  unfold memcpy_compatible, intlike. intros H.
  apply andb_true_iff in H. destruct H as [H Hcase].
  apply andb_true_iff in H. destruct H as [H _].
  apply andb_true_iff in H. destruct H as [Hs HtT]. apply Z.eqb_eq in Hs.
  split; [exact Hs|]. split; [exact HtT|].
  apply orb_true_iff in Hcase. destruct Hcase as [He|Hi]; [left; apply vty_eqb_eq, He|right].
  apply andb_true_iff in Hi. destruct Hi as [Hi Hb]. apply andb_true_iff in Hi. destruct Hi as [HiT HiU].
  split; [exact HiT|]. split; [exact HiU|]. intros ->.
  apply orb_true_iff in Hb. destruct Hb as [Hb|Hb]; [discriminate|apply vty_eqb_eq, Hb].
Qed.

Theorem memcpy_compatible_sound T U v :
  wf_vty T -> memcpy_compatible T U = true -> in_range U v ->
  repr T (conv U T v) = repr U v.
Proof.
  intros Hw H Hr. destruct (memcpy_compatible_spec T U H) as (Hs & HtT & [<-|(HiT & HiU & Hb)]).
  - apply repr_conv_same; assumption.
  - destruct (vty_eqb T VBool) eqn:E.
    + apply vty_eqb_eq in E. subst T. rewrite (Hb eq_refl) in *. apply repr_conv_same; auto.
    + apply repr_conv_intlike; auto. intros ->. discriminate.
Qed.

Lemma dispatch_memcpy f rv T U : dispatch f rv T U = PMemcpy -> memcpy_compatible T U = true.
Proof.
  unfold dispatch. destruct (is_range f).
  - destruct (has_data_and_size f && memcpy_compatible T U) eqn:E; [|destruct rv; discriminate].
    apply andb_true_iff in E. tauto.
  - destruct f; try discriminate; destruct (memcpy_compatible T U); auto; discriminate.
Qed.

(* is the source item handed over as an rvalue? *)
Definition moves (f : form) (rv : bool) (T U : vty) : bool :=
  match dispatch f rv T U with PMove => true | PCopy => is_generated f | PMemcpy => false end.

Theorem value_category_irrelevant b U T v : ~ (T = VHandle /\ U = VRaw) -> convm b U T v = conv U T v.
Proof. intros H. unfold convm. destruct T; try reflexivity. destruct U; try reflexivity. exfalso. apply H. split; reflexivity. Qed.

(* whatever path the dispatch takes, the stored objects are T(source item) - T(std::move(source
   item)) where the source is consumed as an rvalue - item by item, and min(n, length of the
   source) items are consumed *)
Theorem stored_is_converted f rv T U src n :
  wf_vty T -> Forall (in_range U) src ->
  stored f rv T U src n = map (fun v => repr T (convm (moves f rv T U) U T v)) (firstn n src) /\
  length (stored f rv T U src n) = Nat.min n (length src).
Proof.
  intros Hw Hsrc.
  assert (Hmain : stored f rv T U src n = map (fun v => repr T (convm (moves f rv T U) U T v)) (firstn n src)).
  { unfold stored, moves. destruct (dispatch f rv T U) eqn:D; try reflexivity.
    pose proof (dispatch_memcpy f rv T U D) as Hc.
    apply map_ext_in. intros v Hv. rewrite value_category_irrelevant.
    - symmetry. apply memcpy_compatible_sound; auto.
      rewrite Forall_forall in Hsrc. apply Hsrc. eapply In_firstn_. exact Hv.
    - intros [-> ->]. apply memcpy_compatible_spec in Hc. destruct Hc as [Hc _]. discriminate. }
  split; [exact Hmain|]. rewrite Hmain, map_length, firstn_length. reflexivity.
Qed.

(* lvalue sources are never moved from; an rvalue range that is not memcpy'd and a
   move_iterator are moved from exactly once per consumed item *)
Theorem lvalue_sources_untouched f T U src n : is_range f = true ->
  moved_from f false T U src n = repeat 0 (length src).
Proof.
  intros Hr. unfold moved_from, dispatch. rewrite Hr.
  destruct (has_data_and_size f && memcpy_compatible T U); reflexivity.
Qed.

Theorem rvalue_range_moved_once f T U src n : is_range f = true ->
  (has_data_and_size f && memcpy_compatible T U) = false ->
  moved_from f true T U src n = repeat 1 (Nat.min n (length src)) ++ repeat 0 (length src - n).
Proof. intros Hr Hm. unfold moved_from, dispatch. rewrite Hr, Hm. reflexivity. Qed.

Theorem move_iterator_moved_once T U src n :
  moved_from FMoveIter false T U src n = repeat 1 (Nat.min n (length src)) ++ repeat 0 (length src - n).
Proof. reflexivity. Qed.

(* the rule of the pinned tree (equal size, trivially copyable, equal floating-point-ness)
   is refuted: bool <- uint8_t{2} keeps the byte 2, T(u) is true = 1 *)
Theorem memcpy_compatible_old_refuted :
  exists T U v, memcpy_compatible_old T U = true /\ in_range U v /\ repr T (conv U T v) <> repr U v.
Proof. exists VBool, (VUInt 1), 2. vm_compute. repeat split; try lia; discriminate. Qed.
