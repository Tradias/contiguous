(* NtBase.v — what NtRefine.v, FixedErase.v and EmplacePos.v share (C01, C06): destruction
   changes only the bytes of the destroyed elements, the fixed stride keeps slots apart, and a
   few equations between the removal operations. *)
From Coq Require Import ZArith Lia List Bool.
From Cntgs Require Import Layout LayoutThm Mem MemLemmas Vector Spec Rep StableThm ElemLemmas Ordered Refine.
Import ListNotations.
Local Open Scope Z_scope.

Lemma scribble_out : forall n m a sz pat x, length pat = Z.to_nat sz -> 0 < sz ->
  ~ (a <= x < a + Z.of_nat n * sz) -> scribble m a sz n pat x = m x.
Proof.
  induction n as [|n IH]; intros m a sz pat x Hl Hs Hx; [reflexivity|].
  rewrite Nat2Z.inj_succ, Z.mul_succ_l in Hx.
  cbn [scribble]. rewrite IH; auto; [|lia].
  apply mwrite_out. rewrite Hl, Z2Nat.id by lia. lia.
Qed.

Lemma dead_bytes_length n : length (dead_bytes n) = Z.to_nat n.
Proof. apply repeat_length. Qed.

Lemma moved_bytes_length n : length (moved_bytes n) = Z.to_nat n.
Proof. apply repeat_length. Qed.

Lemma mwrite_moved_out m a sz x : 0 < sz -> ~ (a <= x < a + sz) -> mwrite m a (moved_bytes sz) x = m x.
Proof. intros Hs Hx. apply mwrite_out. rewrite moved_bytes_length, Z2Nat.id by lia. exact Hx. Qed.

Lemma ordered_from_le es : forall lo hi, ordered_from lo es hi -> lo <= hi.
Proof.
  induction es as [|[b e] es IH]; intros lo hi H; cbn [ordered_from] in H; [exact H|].
  destruct H as (H1 & H2 & H). specialize (IH _ _ H). lia.
Qed.

Lemma destruct_fields_frame L : forall cnts xs bid m lo hi y,
  Forall wfp L -> Forall (fun c => 0 <= c) cnts ->
  ordered_from lo (extents L cnts xs) hi -> ~ (lo <= y < hi) ->
  fst (destruct_fields L (combine xs cnts) bid m) y = m y.
Proof.
  induction L as [|p L IH]; intros cnts xs bid m lo hi y HF Hc Ho Hy; [reflexivity|].
  destruct xs as [|x xs]; [reflexivity|]. destruct cnts as [|c cnts]; [reflexivity|].
  cbn [combine destruct_fields]. cbn [extents ordered_from] in Ho. destruct Ho as (H1 & H2 & Ho).
  apply Forall_cons_iff in HF. destruct HF as [[Hs _] HF]. inversion Hc; subst.
  pose proof (ordered_from_le _ _ _ Ho) as Hle.
  specialize (IH cnts xs bid (if ntd p then scribble m x (psz p) (Z.to_nat c) (dead_bytes (psz p)) else m)
                 (x + c * psz p) hi y HF ltac:(assumption) Ho ltac:(lia)).
  destruct (destruct_fields L (combine xs cnts) bid _) as [m2 evs2]. cbn [fst] in *.
  rewrite IH. destruct (ntd p); [|reflexivity].
  apply scribble_out; [apply dead_bytes_length|exact Hs|]. rewrite Z2Nat.id by lia. lia.
Qed.

(* erase_range, clear and the special members ask all_dtriv before they destroy a range; the
   question is redundant, as destruct_elem asks it again *)
Lemma destruct_range_guard L v i n :
  (if all_dtriv L then (v, []) else destruct_range L v i n) = destruct_range L v i n.
Proof.
  destruct (all_dtriv L) eqn:Hd; [|reflexivity]. revert v i.
  induction n as [|n IH]; intros v i; [reflexivity|].
  cbn [destruct_range]. unfold destruct_elem. rewrite Hd, <- IH. reflexivity.
Qed.

(* erase(first, first): the empty range - nothing is destroyed, nothing moves, no event, the
   vector is the very same record; every list, every position *)
Theorem erase_empty_range_identity L v i : erase_range L v i i = (v, []).
Proof.
  unfold erase_range. rewrite destruct_range_guard, Z.sub_diag, Z.eqb_refl, andb_false_r.
  cbn [Z.to_nat destruct_range negb app]. rewrite Z.sub_0_r, resize_same. reflexivity.
Qed.

Lemma erase_as_erase_range L v i : i + 1 < vsize L v -> erase L v i = erase_range L v i (i + 1).
Proof.
  intros Hi. unfold erase, erase_range. rewrite destruct_range_guard, Z.add_simpl_l.
  change (Z.to_nat 1) with 1%nat. cbn [destruct_range]. destruct (destruct_elem L v i) as [v1 e1]. rewrite app_nil_r.
  rewrite (proj2 (Z.ltb_lt _ _) Hi), (proj2 (Z.eqb_neq i (i + 1))) by lia. reflexivity.
Qed.

Lemma remove_range_end {A} i j (l : list A) : (length l <= j)%nat -> remove_range i j l = firstn i l.
Proof. intros Hj. unfold remove_range. rewrite skipn_all2 by exact Hj. apply app_nil_r. Qed.

Lemma pop_back_as_erase_range L v : pop_back L v = erase_range L v (vsize L v - 1) (vsize L v).
Proof.
  unfold pop_back, erase_range. rewrite destruct_range_guard, Z.ltb_irrefl.
  replace (vsize L v - (vsize L v - 1)) with 1 by lia. change (Z.to_nat 1) with 1%nat. cbn [destruct_range andb].
  destruct (destruct_elem L v (vsize L v - 1)) as [v1 e1]. rewrite !app_nil_r. reflexivity.
Qed.

Lemma clear_as_erase_range L v : clear L v = erase_range L v 0 (vsize L v).
Proof.
  unfold clear, erase_range. rewrite Z.ltb_irrefl, !Z.sub_0_r, Z.sub_diag. cbn [andb].
  destruct (if all_dtriv L then _ else _) as [v1 e1]. rewrite app_nil_r. reflexivity.
Qed.

Lemma move_forward_none L v from to : all_triv L = false -> vsize L v = from -> move_forward L v from to = (v, []).
Proof. intros Hnt Hsz. unfold move_forward. rewrite Hnt, Hsz, Z.sub_diag. reflexivity. Qed.

Lemma erase_last_as_erase_range L v i : all_triv L = false -> i + 1 = vsize L v ->
  erase L v i = erase_range L v i (i + 1).
Proof.
  intros Hnt Hi. unfold erase, erase_range. rewrite destruct_range_guard, Z.add_simpl_l, <- Hi, Z.ltb_irrefl.
  change (Z.to_nat 1) with 1%nat. cbn [destruct_range andb].
  destruct (destruct_elem_frame L v i) as [_ [m E]]. destruct (destruct_elem L v i) as [v1 e1]. cbn [fst] in E. subst v1.
  rewrite (move_forward_none L (set_mem v m) (i + 1) i Hnt (eq_sym Hi)), !app_nil_r. reflexivity.
Qed.

Section Destroy.
  Variable L : list param.
  Hypothesis Hwf : wf_plist L = true.

  (* destroying element i, found through a memory in which it is still intact, changes bytes of
     that element only *)
  Lemma destruct_elem_inside v l offs i ms : RepO L v l offs -> (i < length l)%nat ->
    elem_at L ms (nth i offs 0) (nth i l []) ->
    exists m', fst (destruct_elem L (set_mem v ms) (Z.of_nat i)) = set_mem v m' /\
      forall y, ~ (nth i offs 0 <= y < elem_end L (nth i offs 0) (nth i l [])) -> m' y = ms y.
  Proof.
    intros R Hi He. unfold destruct_elem.
    destruct (all_dtriv L); [exists ms; split; [reflexivity|auto]|].
    destruct (rep_nth L Hwf v l offs i R Hi) as (_ & _ & _ & Ht & _).
    destruct (rep_elem_view L Hwf v l offs i (v_mem v) R Hi ltac:(reflexivity)) as (Ea & _ & _ & Hpo).
    change (eaddr L (set_mem v ms) (Z.of_nat i)) with (eaddr L (set_mem v (v_mem v)) (Z.of_nat i)).
    rewrite Ea. cbn [set_mem v_fixed v_mem v_bid]. rewrite (load_table L Hwf (v_fixed v) ms _ _ Ht He).
    pose proof (fun y => destruct_fields_frame L _ _ (bidn (v_bid v)) ms _ _ y (wf_plist_Forall L Hwf)
                           (cnts_of_nonneg _) Hpo) as Hfr.
    destruct (destruct_fields L _ (bidn (v_bid v)) ms) as [m' evs].
    exists m'. split; [reflexivity|exact Hfr].
  Qed.

  Lemma destruct_range_inside v l offs : RepO L v l offs -> forall n i ms, (i + n <= length l)%nat ->
    (forall k, (i <= k < i + n)%nat -> elem_at L ms (nth k offs 0) (nth k l [])) ->
    exists m', fst (destruct_range L (set_mem v ms) (Z.of_nat i) n) = set_mem v m' /\
      forall y, (forall k, (i <= k < i + n)%nat ->
                   ~ (nth k offs 0 <= y < elem_end L (nth k offs 0) (nth k l []))) -> m' y = ms y.
  Proof.
    intros R. induction n as [|n IH]; intros i ms Hin Hms; [exists ms; split; [reflexivity|auto]|].
    cbn [destruct_range].
    destruct (destruct_elem_inside v l offs i ms R ltac:(lia) (Hms i ltac:(lia))) as (m1 & E1 & F1).
    destruct (destruct_elem L (set_mem v ms) (Z.of_nat i)) as [v1 e1]. cbn [fst] in E1. subst v1.
    replace (Z.of_nat i + 1) with (Z.of_nat (S i)) by lia.
    destruct (IH (S i) m1 ltac:(lia)) as (m2 & E2 & F2).
    { (* the later elements lie behind element i *)
      intros k Hk. destruct (rep_nth L Hwf v l offs k R ltac:(lia)) as (_ & _ & _ & Ht & _).
      apply (elem_at_ext L Hwf ms m1 _ _ _ Ht); [|apply Hms; lia].
      intros x Hx. apply F1. pose proof (rep_pair L Hwf v l offs i k R ltac:(lia)). lia. }
    destruct (destruct_range L (set_mem v m1) (Z.of_nat (S i)) n) as [v2 e2].
    exists m2. split; [exact E2|]. intros y Hy.
    rewrite F2 by (intros k Hk; apply Hy; lia). apply F1. apply Hy. lia.
  Qed.
End Destroy.

Lemma slot_le S k q : 0 <= S -> (k <= q)%nat -> S * Z.of_nat k <= S * Z.of_nat q.
Proof. intros H0 Hkq. apply Z.mul_le_mono_nonneg_l; lia. Qed.

Lemma stride_fits L fc S k q t : stride_ok L fc S -> tuple_ok L fc 0 t -> (k < q)%nat ->
  elem_end L (S * Z.of_nat k) t <= S * Z.of_nat q.
Proof.
  intros Hst Ht Hkq. destruct (stride_slot L fc S k Hst) as [A B].
  destruct Hst as (H0 & _ & Hfit). pose proof (proj1 (Hfit t _ Ht A B)).
  pose proof (slot_le S (Datatypes.S k) q H0 Hkq). lia.
Qed.

Lemma slot_transfer L fc S m m' q k u : wf_plist L = true -> stride_ok L fc S -> tuple_ok L fc 0 u ->
  (forall x, S * Z.of_nat k <= x < S * Z.of_nat k + S -> m' x = m (x - S * Z.of_nat k + S * Z.of_nat q)) ->
  elem_at L m (S * Z.of_nat q) u -> elem_at L m' (S * Z.of_nat k) u.
Proof.
  intros Hwf Hst Hu Hx He. destruct (stride_slot L fc S q Hst) as [_ HqS]. destruct (stride_slot L fc S k Hst) as [_ HkS].
  pose proof (stride_fits L fc S q (Datatypes.S q) u Hst Hu (le_n _)) as Hfit.
  replace (S * Z.of_nat k) with (S * Z.of_nat q + (S * Z.of_nat k - S * Z.of_nat q)) by ring.
  apply (elem_at_shift L Hwf m m' _ u fc _ Hu); [apply Z.divide_sub_r; assumption| |exact He].
  intros x Hxx. rewrite Hx by lia. f_equal. ring.
Qed.
