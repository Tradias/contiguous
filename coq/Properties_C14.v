(* C14 — relational operators are mutually consistent and depend only on content.
   For EVERY parameter list and arbitrary memory contents: the element-level < is a strict
   partial order (irreflexive, asymmetric, transitive), the vector-level < is irreflexive, and
   > <= >= are derived from < exactly as the property demands.  In represented states: the
   element-level < is a function of the two tuples; vector < is std::lexicographical_compare over
   the two lists on both of its paths, hence asymmetric, with a strict prefix less and the empty
   vector least; == excludes < at both levels.
   REFUTED (known finding, see known_findings.txt): transitivity of the vector-level <. *)
From Coq Require Import ZArith List Bool.
From Cntgs Require Import Layout Mem Vector Proxy World Spec Rep CompareThm ElemThm CmpContent Rep FastEq
     FastLess LessAsym.
Import ListNotations.
Local Open Scope Z_scope.

Theorem C14_reference_less_irreflexive : forall L m fl, L <> [] -> elem_less L m fl m fl = false.
Proof. exact elem_less_irrefl. Qed.
Print Assumptions C14_reference_less_irreflexive.

Theorem C14_reference_less_asymmetric : forall L m1 fl1 m2 fl2, L <> [] ->
  elem_less L m1 fl1 m2 fl2 = true -> elem_less L m2 fl2 m1 fl1 = false.
Proof. exact elem_less_asym. Qed.
Print Assumptions C14_reference_less_asymmetric.

Theorem C14_reference_less_transitive : forall L m1 fl1 m2 fl2 m3 fl3,
  elem_less L m1 fl1 m2 fl2 = true -> elem_less L m2 fl2 m3 fl3 = true ->
  elem_less L m1 fl1 m3 fl3 = true.
Proof. exact elem_less_trans. Qed.
Print Assumptions C14_reference_less_transitive.

(* the result of < depends on the logical content only: it equals a function of the two
   tuples, whatever the memories, positions, junk and fixed sizes of the operands *)
Theorem C14_reference_less_depends_on_content_only : forall L, wf_plist L = true ->
  forall t1 t2 fc1 fc2 m1 m2 a1 a2,
  tuple_ok L fc1 0 t1 -> tuple_ok L fc2 0 t2 -> elem_at L m1 a1 t1 -> elem_at L m2 a2 t2 ->
  elem_less L m1 (ref_fl L t1 a1) m2 (ref_fl L t2 a2) = tuple_less L t1 t2.
Proof. exact elem_less_content. Qed.
Print Assumptions C14_reference_less_depends_on_content_only.

Theorem C14_equal_elements_are_not_less : forall L, wf_plist L = true ->
  forall t1 t2 fc1 fc2 m1 m2 a1 a2,
  tuple_ok L fc1 0 t1 -> tuple_ok L fc2 0 t2 -> elem_at L m1 a1 t1 -> elem_at L m2 a2 t2 ->
  elem_equal L m1 (ref_fl L t1 a1) m2 (ref_fl L t2 a2) = true ->
  elem_less L m1 (ref_fl L t1 a1) m2 (ref_fl L t2 a2) = false /\
  elem_less L m2 (ref_fl L t2 a2) m1 (ref_fl L t1 a1) = false.
Proof. exact equal_elements_are_not_less. Qed.
Print Assumptions C14_equal_elements_are_not_less.

Theorem C14_vector_less_irreflexive : forall L v, L <> [] -> vec_less L v v = false.
Proof. exact vec_less_irrefl. Qed.
Print Assumptions C14_vector_less_irreflexive.

Theorem C14_derived_operators : forall L v1 v2,
  let r := cmp_vecs L v1 v2 in
  nth 2 r false = vec_less L v1 v2 /\ nth 4 r false = vec_less L v2 v1 /\
  nth 3 r false = negb (vec_less L v2 v1) /\ nth 5 r false = negb (vec_less L v1 v2).
Proof. intros L v1 v2. repeat split. Qed.
Print Assumptions C14_derived_operators.

Theorem C14_derived_operators_references : forall L v1 i v2 j,
  let r := cmp_refs L v1 i v2 j in
  nth 2 r false = ref_less L v1 i v2 j /\ nth 4 r false = ref_less L v2 j v1 i /\
  nth 3 r false = negb (ref_less L v2 j v1 i) /\ nth 5 r false = negb (ref_less L v1 i v2 j).
Proof. intros L v1 i v2 j. repeat split. Qed.
Print Assumptions C14_derived_operators_references.

(* a field compared object by object is ordered lexicographically under the value type's own <:
   irreflexive and transitive (even a strict weak order: CompareThm.span_lt_sw) *)
Theorem C14_field_order_is_strict : forall t,
  irrefl _ (span_lt t) /\ trans _ (span_lt t).
Proof. intros t. split; [apply span_lt_irrefl|apply span_lt_trans]. Qed.
Print Assumptions C14_field_order_is_strict.

(* refuted: vector-level < is not transitive (ContiguousVector<uint16_t,uint16_t>) *)
Definition L16 : list param :=
  [ {| pk := Plain; psz := 2; pal := 1; pty := TUInt |}; {| pk := Plain; psz := 2; pal := 1; pty := TUInt |} ].
Definition Kstd : akind := {| pocca := false; pocma := false; pocs := false; always_eq := true; soccc_bump := false |}.
Definition e16 (a b : Z) : list (list (list Z)) := [[[a; 0]]; [[b; 0]]].
Definition ops16 : list op :=
  [ OpMkVec 0 2 0 [] 1; OpEmplace 0 (e16 1 5); OpEmplace 0 (e16 0 0);
    OpMkVec 1 2 0 [] 1; OpEmplace 1 (e16 2 3); OpEmplace 1 (e16 1 1);
    OpMkVec 2 2 0 [] 1; OpEmplace 2 (e16 3 4); OpEmplace 2 (e16 0 0) ].
Definition w16 := run_from Kstd L16 world0 ops16 O.

Theorem C14_vector_less_transitive_refuted :
  exists L x y z, vec_less L x y = true /\ vec_less L y z = true /\ vec_less L x z = false.
Proof.
  exists L16, (getv w16 0), (getv w16 1), (getv w16 2). vm_compute. repeat split.
Qed.
Print Assumptions C14_vector_less_transitive_refuted.

(* vector <, whole-buffer fast path (all value types lexicographically memcmp-able, no
   VaryingSize parameter, IS_PADDING_FREE, equal fixed sizes): in every pair of represented
   states - any capacities, junk, histories - it is std::lexicographical_compare over the two
   lists of tuples with the elements ordered by their bytes: a function of the logical content
   only (tight packing makes the buffers the concatenation of the elements' bytes, all elements
   have the same number of bytes) *)
Theorem C14_vector_less_fast_path_is_lexicographic_on_content : forall L, wf_plist L = true ->
  padfree L = true -> has_varying L = false ->
  forall v1 l1 v2 l2, Rep L v1 l1 -> Rep L v2 l2 ->
  (forallb lxm L && negb (has_varying L) && padfree L && list_eqb (v_fixed v1) (v_fixed v2)) = true ->
  vec_less L v1 v2 = lexl lex_lt (map ebytes l1) (map ebytes l2).
Proof. exact vec_less_content_fast. Qed.
Print Assumptions C14_vector_less_fast_path_is_lexicographic_on_content.

Example C14_fast_path_lists_exist :
  let L := [ {| pk := Plain; psz := 1; pal := 1; pty := TU8 |}; {| pk := Fixed; psz := 1; pal := 1; pty := TByte |} ] in
  wf_plist L = true /\ padfree L = true /\ has_varying L = false /\ forallb lxm L = true.
Proof. vm_compute. repeat split; reflexivity. Qed.

(* ... and on the element-wise path (every other list, or operands with different fixed sizes):
   in every pair of represented states vector < is std::lexicographical_compare over the two
   lists of tuples under the element-level < - a strict prefix is less, the first pair of
   elements ordered either way decides - where the element-level < is a function of the two
   tuples only (C14_reference_less_depends_on_content_only).  (That element-level < is a
   product order and hence the vector order not a strict weak order is the known finding.) *)
Theorem C14_vector_less_elementwise_is_lexicographic_on_content : forall L, wf_plist L = true ->
  forall v1 l1 v2 l2, Rep L v1 l1 -> Rep L v2 l2 ->
  (forallb lxm L && negb (has_varying L) && padfree L && list_eqb (v_fixed v1) (v_fixed v2)) = false ->
  vec_less L v1 v2 = lexb _ (tuple_less L) l1 l2.
Proof. intros L Hwf v1 l1 v2 l2 [o1 R1] [o2 R2]. exact (vec_less_content_elementwise L Hwf v1 v2 l1 l2 o1 o2 R1 R2). Qed.
Print Assumptions C14_vector_less_elementwise_is_lexicographic_on_content.

(* what the vector order keeps on EVERY parameter list and on both paths although the element
   order is only a product order (transitivity fails: C14_vector_less_transitive_refuted):
   in every pair of represented states a < b excludes b < a ... *)
Theorem C14_vector_less_asymmetric : forall L, wf_plist L = true -> L <> [] ->
  forall v1 l1 v2 l2, Rep L v1 l1 -> Rep L v2 l2 ->
  vec_less L v1 v2 = true -> vec_less L v2 v1 = false.
Proof. intros L Hwf HL v1 l1 v2 l2. exact (vec_less_asym L Hwf v1 v2 l1 l2). Qed.
Print Assumptions C14_vector_less_asymmetric.

(* ... a vector whose list of elements is a strict prefix of the other's is less, whatever the
   elements are (capacities, junk, histories and fixed sizes of the two operands arbitrary) ... *)
Theorem C14_strict_prefix_is_less : forall L, wf_plist L = true -> L <> [] ->
  forall v1 l1 v2 l2, Rep L v1 l1 -> Rep L v2 l2 ->
  forall c, c <> [] -> l2 = l1 ++ c ->
  vec_less L v1 v2 = true /\ vec_less L v2 v1 = false.
Proof. intros L Hwf HL v1 l1 v2 l2. exact (vec_less_strict_prefix L Hwf v1 v2 l1 l2). Qed.
Print Assumptions C14_strict_prefix_is_less.

(* ... and the empty vector is below exactly the non-empty ones *)
Theorem C14_empty_vector_is_least : forall L, wf_plist L = true -> L <> [] ->
  forall v1 l1 v2 l2, Rep L v1 l1 -> Rep L v2 l2 -> l1 = [] ->
  vec_less L v1 v2 = negb (Z.of_nat (length l2) =? 0)%Z /\ vec_less L v2 v1 = false.
Proof. intros L Hwf HL v1 l1 v2 l2. exact (vec_less_empty L Hwf v1 v2 l1 l2). Qed.
Print Assumptions C14_empty_vector_is_least.

(* == and < are consistent at vector level on EVERY list (floating-point fields included) and
   whichever of the four path combinations the two operators take: vectors that compare equal
   are not ordered either way *)
Theorem C14_equal_vectors_are_not_less : forall L, wf_plist L = true -> L <> [] ->
  forall v1 l1 v2 l2, Rep L v1 l1 -> Rep L v2 l2 ->
  vec_equal L v1 v2 = true -> vec_less L v1 v2 = false /\ vec_less L v2 v1 = false.
Proof. exact vec_equal_not_less. Qed.
Print Assumptions C14_equal_vectors_are_not_less.

(* ... hence a < b implies a != b (!= is the negation of ==: C13_not_equal_is_negation) *)
Theorem C14_less_vectors_are_not_equal : forall L, wf_plist L = true -> L <> [] ->
  forall v1 l1 v2 l2, Rep L v1 l1 -> Rep L v2 l2 ->
  vec_less L v1 v2 = true -> vec_equal L v1 v2 = false /\ vec_equal L v2 v1 = false.
Proof. exact vec_less_not_equal. Qed.
Print Assumptions C14_less_vectors_are_not_equal.
