(* LayoutThm.v — theorems about the layout calculus of Layout.v:
   soundness of the compile-time trailing-alignment analysis (C03), ordering and
   non-overlap of fields (C04), tight packing (C05), translation invariance of the
   placement (used by every relocation argument). *)
From Coq Require Import ZArith Lia List Bool.
From Cntgs Require Import Base BaseLemmas Layout.
Import ListNotations.
Local Open Scope Z_scope.

Definition wfp (p : param) : Prop := 0 < psz p /\ pow2 (pal p).

Lemma wf_plist_Forall L : wf_plist L = true -> Forall wfp L.
Proof.
  unfold wf_plist. destruct L as [|p L]; [discriminate|].
  rewrite andb_true_iff. intros [H _]. rewrite forallb_forall in H.
  apply Forall_forall. intros q Hq. apply H in Hq. unfold wf_param in Hq.
  rewrite andb_true_iff, Z.leb_le in Hq. split; [lia|apply is_pow2b_spec, Hq].
Qed.

Lemma wf_plist_nonempty L : wf_plist L = true -> L <> [].
Proof. destruct L; [discriminate|congruence]. Qed.

Lemma wf_plist_varying L : wf_plist L = true -> wf_varying false L = true.
Proof. unfold wf_plist. destruct L; [discriminate|]. rewrite andb_true_iff. tauto. Qed.

(* STORAGE_ELEMENT_ALIGNMENT is the largest alignment of the list *)
Definition maxal (L : list param) : Z := fold_right Z.max 0 (map pal L).

Lemma fold_max_repeat x n m : fold_right Z.max m (repeat x n) = match n with O => m | _ => Z.max x m end.
Proof.
  induction n as [|n IH]; [reflexivity|]. cbn [repeat fold_right]. rewrite IH.
  destruct n; lia.
Qed.

Lemma fold_max_base l m : 0 <= m -> fold_right Z.max m l = Z.max m (fold_right Z.max 0 l).
Proof.
  intros Hm. induction l as [|x l IH]; cbn [fold_right]; [symmetry; apply Z.max_l, Hm|].
  rewrite IH, !Z.max_assoc, (Z.max_comm x m). reflexivity.
Qed.

Lemma fold_max_nonneg l : 0 <= fold_right Z.max 0 l.
Proof. induction l; cbn [fold_right]; lia. Qed.

Lemma lgroups_max L : forall acc n, 0 <= acc ->
  (n = O -> acc = 0) ->
  fold_right Z.max 0 (lgroups L acc n) = Z.max acc (maxal L).
Proof.
  induction L as [|p L IH]; intros acc n Hacc Hn; cbn [lgroups maxal map fold_right].
  - rewrite fold_max_repeat. destruct n; [rewrite Hn|]; reflexivity.
  - fold (maxal L). pose proof (Z.le_trans _ _ _ Hacc (Z.le_max_l acc (pal p))) as Hacc'.
    rewrite (Z.max_assoc acc). destruct (is_varying p).
    + rewrite fold_right_app, fold_max_repeat, IH by auto using Z.le_refl.
      rewrite (Z.max_r 0) by apply fold_max_nonneg. reflexivity.
    + apply IH; [exact Hacc'|discriminate].
Qed.

Lemma SA_maxal L : SA L = maxal L.
Proof. unfold SA, largest. rewrite lgroups_max by auto using Z.le_refl. apply Z.max_r, fold_max_nonneg. Qed.

Lemma SA_ge L p : In p L -> pal p <= SA L.
Proof.
  rewrite SA_maxal. induction L as [|q L IH]; [intros []|]. cbn [maxal map fold_right]. fold (maxal L).
  intros [->|Hin]; [lia|]. specialize (IH Hin). lia.
Qed.

Lemma SA_pow2 L : Forall wfp L -> L <> [] -> pow2 (SA L).
Proof.
  rewrite SA_maxal. induction 1 as [|q L [_ Hq] HL IH]; [congruence|]. intros _.
  cbn [maxal map fold_right]. fold (maxal L). destruct L as [|r L'].
  - cbn [maxal map fold_right]. pose proof (pow2_pos _ Hq). rewrite Z.max_l by lia. exact Hq.
  - apply pow2_max; auto. apply IH. congruence.
Qed.

Lemma SA_pos L : wf_plist L = true -> 0 < SA L.
Proof. intros H. exact (pow2_pos _ (SA_pow2 L (wf_plist_Forall L H) (wf_plist_nonempty L H))). Qed.

Lemma SA_div L p : Forall wfp L -> In p L -> (pal p | SA L).
Proof.
  intros Hwf Hin. apply pow2_divide.
  - rewrite Forall_forall in Hwf. apply Hwf, Hin.
  - apply SA_pow2; auto. intros ->. destruct Hin.
  - apply SA_ge, Hin.
Qed.

Lemma align_if_ge c al a : 0 < al -> a <= align_if c al a.
Proof. intros H. unfold align_if. destruct c; [apply align_up_ge; auto|lia]. Qed.

Lemma align_if_id c al a : 0 < al -> (al | a) -> align_if c al a = a.
Proof. intros H Hd. unfold align_if. destruct c; [apply align_up_id; auto|reflexivity]. Qed.

Lemma align_if_shift c al a d : 0 < al -> (al | d) -> align_if c al (a + d) = align_if c al a + d.
Proof. intros H Hd. unfold align_if. destruct c; [apply align_up_shift; auto|reflexivity]. Qed.

(* skipping the alignment step is sound when the previous trailing alignment, which
   divides the address, is at least the alignment of the field *)
Lemma align_if_prev al prev a : pow2 al -> pow2 prev -> (prev | a) ->
  align_if (prev <? al) al a = align_up a al.
Proof.
  intros Hal Hp Hd. unfold align_if. destruct (Z.ltb_spec prev al) as [Hlt|Hge]; [reflexivity|].
  symmetry. apply align_up_id; [apply pow2_pos; exact Hal|].
  eapply Z.divide_trans; [|exact Hd]. apply pow2_divide; auto.
Qed.

(* C03: soundness of the trailing-alignment analysis.
   [Inv (off, br) prev a]: the compile-time state (offset, bracket) abstracts the real
   address [a] — a ≡ off (mod br) — and the previous trailing alignment divides [a]. *)
Definition Inv (st : Z * Z) (prev a : Z) : Prop :=
  let '(off, br) := st in
  0 <= off /\ 0 <= a /\ pow2 br /\ (br | a - off) /\ pow2 prev /\ (prev | a).

Definition cnt_ok (p : param) (c : Z) : Prop := 0 <= c /\ (pk p = Plain -> c = 1).

(* what the placement guarantees for the field at [x] whose predecessor ends at [lo]; the
   object count [c] is not constrained, and [fo_after] follows from [fo_tight] *)
Record field_ok (p : param) (lo x c : Z) : Prop := {
  fo_aligned : (pal p | x);             (* C03 *)
  fo_after   : lo <= x;                 (* C04: after the previous field *)
  fo_tight   : x = align_up lo (pal p)  (* C05: at the least aligned address *)
}.

(* one parameter: the field is placed well, and the state the analysis computes for the
   next parameter abstracts the address behind the field *)
Lemma step_sound p st prev a c : wfp p -> cnt_ok p c -> Inv st prev a ->
  let a' := align_if (prev <? pal p) (pal p) a in
  field_ok p a a' c /\ Inv (fst (tr_step p st)) (snd (tr_step p st)) (a' + c * psz p).
Proof.
  intros [Hs Hal] [Hc Hc1] HI. destruct st as [off br]. destruct HI as (Hoff & Ha & Hbr & Hd & Hp & Hpd).
  pose proof (pow2_pos _ Hal) as Halp. pose proof (pow2_pos _ Hbr) as Hbrp.
  cbv zeta. rewrite (align_if_prev (pal p) prev a Hal Hp Hpd).
  pose proof (align_up_div a (pal p) Halp) as Hal'. pose proof (align_up_ge a (pal p) Halp) as Hge'.
  pose proof (align_up_ge off (pal p) Halp) as Hao.
  (* while the bracket is at least the field's alignment, the aligned address and the
     aligned offset stay congruent modulo the bracket *)
  assert (Hcg : pal p <= br -> (br | align_up a (pal p) - align_up off (pal p))).
  { intros Hle. rewrite (align_up_congr a off (pal p) br); auto. }
  set (a' := align_up a (pal p)) in *. set (ao := align_up off (pal p)) in *.
  split; [constructor; [exact Hal'|apply Hge'|reflexivity]|].
  pose proof (mul_size_nonneg c (psz p) Hc Hs) as Hcp.
  (* a span closes the bracket: the next one is its trailing alignment [t] *)
  set (leading := Z.max (pal p) (tr_align ao (Z.max br (pal p)))).
  assert (Hspan : Inv (0, tr_align (psz p) leading) (tr_align (psz p) leading) (a' + c * psz p)).
  { assert (Hlead : pow2 leading /\ (leading | a')).
    { unfold leading. destruct (Z.max_spec (pal p) (tr_align ao (Z.max br (pal p)))) as [[Hlt ->]|[_ ->]]; [|auto].
      (* the bracket in front of the span is still [br], and [ao] is not 0 *)
      unfold tr_align in Hlt. apply Z.min_glb_lt_iff in Hlt. destruct Hlt as [Hlb Hlt].
      assert (Haop : 0 < ao).
      { destruct (Z.eq_dec ao 0) as [E|]; [rewrite E, lowbit_0 in Hlb|]; lia. }
      assert (Hle : pal p <= br) by (clear - Hlt; lia).
      rewrite Z.max_l by exact Hle. split; [apply tr_align_pow2; auto|].
      replace a' with (a' - ao + ao) by lia. apply tr_align_div; auto using Z.divide_refl. }
    destruct Hlead as [Hlp Hld].
    assert (Htd : (tr_align (psz p) leading | a' + c * psz p)).
    { apply tr_align_div; auto. apply Z.divide_factor_r. }
    pose proof (tr_align_pow2 (psz p) leading Hs Hlp) as Ht.
    split; [apply Z.le_refl|]. split; [clear - Ha Hge' Hcp; lia|]. split; [exact Ht|]. split; [rewrite Z.sub_0_r; exact Htd|].
    split; [exact Ht|exact Htd]. }
  unfold tr_step. fold ao. destruct (pk p) eqn:Hk; cbn [fst snd].
  - (* Plain: offset and bracket are carried on.  A bracket smaller than the field's
       alignment says nothing about the aligned address, so the offset restarts at the
       field's size, relative to the new bracket [pal p] *)
    rewrite (Hc1 eq_refl), Z.mul_1_l.
    set (no := if br <? pal p then psz p else off + (ao - off + psz p)).
    assert (Hno : 0 < no /\ (Z.max br (pal p) | a' + psz p - no)).
    { unfold no. destruct (Z.ltb_spec br (pal p)) as [Hlt|Hge].
      - rewrite Z.max_r, Z.add_simpl_r by apply Z.lt_le_incl, Hlt. auto.
      - rewrite Z.max_l by exact Hge. replace (a' + psz p - (off + (ao - off + psz p))) with (a' - ao) by lia.
        split; [clear - Hoff Hao Hs; lia|auto]. }
    destruct Hno as [Hno Hnd]. assert (Hbr' : pow2 (Z.max br (pal p))) by (apply pow2_max; auto).
    split; [apply Z.lt_le_incl, Hno|]. split; [clear - Ha Hge' Hs; lia|]. split; [exact Hbr'|]. split; [exact Hnd|].
    split; [apply tr_align_pow2; auto|].
    replace (a' + psz p) with (a' + psz p - no + no) by lia.
    apply tr_align_div; auto. apply Z.divide_refl.
  - exact Hspan.
  - exact Hspan.
Qed.

(* [chain L cnts lo xs e]: fields at xs, each at the least aligned address after the end
   of its predecessor (the first after [lo]); [e] is the end of the last field *)
Inductive chain : list param -> list Z -> Z -> list Z -> Z -> Prop :=
| chain_nil lo : chain [] [] lo [] lo
| chain_cons p L c cnts lo x xs e :
    field_ok p lo x c -> chain L cnts (x + c * psz p) xs e ->
    chain (p :: L) (c :: cnts) lo (x :: xs) e.

Lemma place_from_cons p L pt pv c cnts a :
  place_from (p :: L) (pt :: pv) (c :: cnts) a =
    (align_if (pt <? pal p) (pal p) a :: fst (place_from L pv cnts (align_if (pt <? pal p) (pal p) a + c * psz p)),
     snd (place_from L pv cnts (align_if (pt <? pal p) (pal p) a + c * psz p))).
Proof. cbn [place_from]. destruct (place_from L pv cnts _). reflexivity. Qed.

(* the placement driven by the analysis is a chain, and the last trailing alignment divides
   its end *)
Lemma place_from_sound L : forall st prev cnts a,
  Forall wfp L -> Forall2 cnt_ok L cnts -> Inv st prev a ->
  let pvs := prev :: trails_from L st in
  let r := place_from L pvs cnts a in
  chain L cnts a (fst r) (snd r) /\
  pow2 (nth (length L) pvs 0) /\ (nth (length L) pvs 0 | snd r) /\ 0 <= snd r.
Proof.
  induction L as [|p L IH]; intros st prev cnts a Hwf Hc HI; cbv zeta.
  - inversion Hc; subst. destruct st as [off br]. destruct HI as (_ & Ha & _ & _ & Hp & Hd).
    cbn. split; [constructor|auto].
  - inversion Hc as [|? c ? cnts' Hc1 Hcr]; subst. inversion Hwf as [|? ? Hwp HwL]; subst.
    destruct (step_sound p st prev a c Hwp Hc1 HI) as [Hfo HI'].
    cbn [trails_from]. destruct (tr_step p st) as [st' t]. rewrite place_from_cons.
    destruct (IH st' t cnts' _ HwL Hcr HI') as [Hch Hend].
    split; [constructor; assumption|exact Hend].
Qed.

Lemma Inv_init L a : Forall wfp L -> L <> [] -> 0 <= a -> (SA L | a) -> Inv (0, SA L) (SA L) a.
Proof.
  intros Hwf Hne Ha Hd. pose proof (SA_pow2 L Hwf Hne). unfold Inv.
  repeat split; auto; try lia. now rewrite Z.sub_0_r.
Qed.

Lemma place_chain_wf L cnts a :
  wf_plist L = true -> Forall2 cnt_ok L cnts -> 0 <= a -> (SA L | a) ->
  chain L cnts a (fst (place L cnts a)) (snd (place L cnts a)).
Proof.
  intros Hwf Hc Ha Hd. pose proof (wf_plist_Forall L Hwf) as HF. pose proof (wf_plist_nonempty L Hwf) as Hne.
  apply (place_from_sound L (0, SA L) (SA L)); auto. apply Inv_init; auto.
Qed.

Lemma chain_aligned L cnts lo xs e : chain L cnts lo xs e -> Forall2 (fun p x => (pal p | x)) L xs.
Proof. induction 1 as [|p L c cnts lo x xs e [H1 H2 H3] _ IH]; constructor; auto. Qed.

Lemma chain_lengths L cnts lo xs e : chain L cnts lo xs e -> length xs = length L /\ length cnts = length L.
Proof. induction 1 as [|? ? ? ? ? ? ? ? _ _ [IH1 IH2]]; cbn [length]; auto. Qed.

(* the byte ranges [x_k, x_k + c_k * psz_k) of the fields; [ordered_from lo es hi]: each range
   starts at or after the end of the one before, the first after [lo], the last ends by [hi] *)
Fixpoint extents (L : list param) (cnts xs : list Z) : list (Z * Z) :=
  match L, cnts, xs with
  | p :: L', c :: cnts', x :: xs' => (x, x + c * psz p) :: extents L' cnts' xs'
  | _, _, _ => []
  end.

Fixpoint ordered_from (lo : Z) (es : list (Z * Z)) (hi : Z) : Prop :=
  match es with
  | [] => lo <= hi
  | (b, e) :: es' => lo <= b /\ b <= e /\ ordered_from e es' hi
  end.

Lemma chain_ordered L cnts lo xs e : Forall2 cnt_ok L cnts -> Forall wfp L ->
  chain L cnts lo xs e -> ordered_from lo (extents L cnts xs) e.
Proof.
  intros Hc Hwf H. revert Hc Hwf. induction H as [|p L c cnts lo x xs e [H1 H2 H3] _ IH]; intros Hc Hwf.
  - cbn. lia.
  - inversion Hc as [|? ? ? ? [Hc0 _] Hcr]; subst. inversion Hwf as [|? ? [Hs _] HwL]; subst.
    cbn [extents ordered_from]. pose proof (mul_size_nonneg c (psz p) Hc0 Hs).
    repeat split; auto; lia.
Qed.

Lemma chain_end_ge L cnts lo xs e : Forall2 cnt_ok L cnts -> Forall wfp L -> chain L cnts lo xs e -> lo <= e.
Proof.
  intros Hc Hwf H. revert Hc Hwf. induction H as [|p L c cnts lo x xs e [H1 H2 H3] _ IH]; intros Hc Hwf; [lia|].
  inversion Hc as [|? ? ? ? [Hc0 _] Hcr]; subst. inversion Hwf as [|? ? [Hs _] HwL]; subst.
  specialize (IH Hcr HwL). pose proof (mul_size_nonneg c (psz p) Hc0 Hs). lia.
Qed.

(* C05: every field sits at the lowest suitably aligned address after its predecessor *)
Fixpoint tight_from (lo : Z) (L : list param) (cnts xs : list Z) : Prop :=
  match L, cnts, xs with
  | p :: L', c :: cnts', x :: xs' => x = align_up lo (pal p) /\ tight_from (x + c * psz p) L' cnts' xs'
  | [], [], [] => True
  | _, _, _ => False
  end.

Lemma chain_tight L cnts lo xs e : chain L cnts lo xs e -> tight_from lo L cnts xs.
Proof. induction 1 as [|p L c cnts lo x xs e [H1 H2 H3] _ IH]; cbn [tight_from]; auto. Qed.

(* C03: every field at a multiple of its alignment *)
Theorem place_aligned L cnts a :
  wf_plist L = true -> Forall2 cnt_ok L cnts -> 0 <= a -> (SA L | a) ->
  Forall2 (fun p x => (pal p | x)) L (fst (place L cnts a)).
Proof. intros Hwf Hc Ha Hd. eapply chain_aligned, place_chain_wf; auto. Qed.

(* C04: fields in parameter order, inside [a, end), pairwise disjoint *)
Theorem place_ordered L cnts a :
  wf_plist L = true -> Forall2 cnt_ok L cnts -> 0 <= a -> (SA L | a) ->
  ordered_from a (extents L cnts (fst (place L cnts a))) (snd (place L cnts a)).
Proof.
  intros Hwf Hc Ha Hd. apply chain_ordered; [exact Hc|apply wf_plist_Forall; exact Hwf|].
  apply place_chain_wf; auto.
Qed.

Theorem place_tight L cnts a :
  wf_plist L = true -> Forall2 cnt_ok L cnts -> 0 <= a -> (SA L | a) ->
  tight_from a L cnts (fst (place L cnts a)).
Proof. intros Hwf Hc Ha Hd. eapply chain_tight, place_chain_wf; auto. Qed.

Theorem place_first L cnts a : wf_plist L = true -> Forall2 cnt_ok L cnts -> 0 <= a -> (SA L | a) ->
  hd a (fst (place L cnts a)) = a.
Proof.
  intros Hwf _ _ Hd. pose proof (wf_plist_Forall L Hwf) as HF.
  destruct L as [|p L]; [discriminate|]. destruct cnts as [|c cnts]; [reflexivity|].
  unfold place, prevs. rewrite place_from_cons. cbn [fst hd].
  inversion HF as [|? ? [_ Hal] _]; subst. apply align_if_id; [apply pow2_pos; exact Hal|].
  eapply Z.divide_trans; [apply SA_div; [exact HF|left; reflexivity]|exact Hd].
Qed.

Lemma place_from_end_ge L : forall pv cnts a, Forall wfp L -> Forall (fun c => 0 <= c) cnts ->
  a <= snd (place_from L pv cnts a).
Proof.
  induction L as [|p L IH]; intros pv cnts a Hwf Hc; [cbn; lia|].
  destruct pv as [|pt pv]; [cbn; lia|]. destruct cnts as [|c cnts]; [cbn; lia|].
  inversion Hwf as [|? ? [Hs Hal] HwL]; subst. inversion Hc as [|? ? Hc0 Hcr]; subst.
  rewrite place_from_cons. cbn [snd].
  specialize (IH pv cnts (align_if (pt <? pal p) (pal p) a + c * psz p) HwL Hcr).
  pose proof (align_if_ge (pt <? pal p) (pal p) a (pow2_pos _ Hal)).
  pose proof (mul_size_nonneg c (psz p) Hc0 Hs). lia.
Qed.

Lemma place_from_shift L : forall ps cnts a d,
  Forall wfp L -> (forall p, In p L -> (pal p | d)) ->
  place_from L ps cnts (a + d) =
    (map (fun x => x + d) (fst (place_from L ps cnts a)), snd (place_from L ps cnts a) + d).
Proof.
  induction L as [|p L IH]; intros ps cnts a d Hwf Hd; [reflexivity|].
  destruct ps as [|pt ps]; [reflexivity|]. destruct cnts as [|c cnts]; [reflexivity|].
  inversion Hwf as [|? ? [Hs Hal] HwL]; subst.
  rewrite !place_from_cons, align_if_shift by (try apply pow2_pos; auto using in_eq).
  replace (align_if (pt <? pal p) (pal p) a + d + c * psz p)
    with (align_if (pt <? pal p) (pal p) a + c * psz p + d) by lia.
  rewrite IH by auto using in_cons. reflexivity.
Qed.

(* shifting an element by a multiple of the storage alignment shifts every field by
   the same amount: why memmove/memcpy relocation preserves the layout *)
Theorem place_shift L cnts a d : Forall wfp L -> (SA L | d) ->
  place L cnts (a + d) = (map (fun x => x + d) (fst (place L cnts a)), snd (place L cnts a) + d).
Proof.
  intros Hwf Hd. unfold place. apply place_from_shift; auto.
  intros p Hp. eapply Z.divide_trans; [apply SA_div; eauto|exact Hd].
Qed.

Theorem place_shift_fst L cnts a d : wf_plist L = true -> (SA L | d) ->
  fst (place L cnts (a + d)) = map (fun x => x + d) (fst (place L cnts a)).
Proof. intros Hwf Hd. rewrite place_shift; auto. apply wf_plist_Forall; auto. Qed.

Theorem place_shift_snd L cnts a d : wf_plist L = true -> (SA L | d) ->
  snd (place L cnts (a + d)) = snd (place L cnts a) + d.
Proof. intros Hwf Hd. rewrite place_shift; auto. apply wf_plist_Forall; auto. Qed.

Lemma trails_from_length L : forall st, length (trails_from L st) = length L.
Proof.
  induction L as [|q L IH]; intros st; cbn [trails_from length]; [reflexivity|].
  destruct (tr_step q st). cbn [length]. f_equal. apply IH.
Qed.

Lemma prevs_length L : length (prevs L) = S (length L).
Proof. unfold prevs, trails. cbn [length]. now rewrite trails_from_length. Qed.

Lemma prev_tr_nth L k : prev_tr L k = nth k (prevs L) 0.
Proof. destruct k; reflexivity. Qed.

(* the address where the NEXT element starts is a multiple of the storage alignment,
   and it is the least such address at or after the end of this element *)
Theorem first_align_end L cnts a :
  wf_plist L = true -> Forall2 cnt_ok L cnts -> 0 <= a -> (SA L | a) ->
  let e := snd (place L cnts a) in
  (SA L | first_align L e) /\ e <= first_align L e /\ first_align L e = align_up e (SA L).
Proof.
  intros Hwf Hc Ha Hd.
  pose proof (wf_plist_Forall _ Hwf) as HF. pose proof (wf_plist_nonempty _ Hwf) as Hne.
  pose proof (SA_pow2 L HF Hne) as HS. pose proof (SA_pos L Hwf) as HSp.
  destruct (place_from_sound L (0, SA L) (SA L) cnts a HF Hc (Inv_init L a HF Hne Ha Hd)) as (_ & Hp & Hdv & _).
  cbv zeta. unfold first_align. rewrite prev_tr_nth. unfold prevs, trails, place.
  rewrite align_if_prev; auto. split; [apply align_up_div; auto|]. split; [apply align_up_ge; auto|reflexivity].
Qed.

Lemma first_align_aligned L a : wf_plist L = true -> (SA L | a) -> first_align L a = a.
Proof. intros Hwf. apply align_if_id, SA_pos, Hwf. Qed.

Lemma first_align_0 L : wf_plist L = true -> first_align L 0 = 0.
Proof. intros Hwf. apply first_align_aligned; [exact Hwf|apply Z.divide_0_r]. Qed.

Lemma first_align_shift L a d : wf_plist L = true -> (SA L | d) -> first_align L (a + d) = first_align L a + d.
Proof. intros Hwf. apply align_if_shift, SA_pos, Hwf. Qed.

Lemma first_align_ge L a : wf_plist L = true -> a <= first_align L a.
Proof. intros Hwf. apply align_if_ge, SA_pos, Hwf. Qed.
