(* FastLess.v — the whole-buffer fast path of vector < (vector.hpp lexicographical_compare:
   all value types lexicographically memcmp-able, no VaryingSize parameter, IS_PADDING_FREE,
   equal fixed sizes): in every pair of represented states it is std::lexicographical_compare
   over the two lists of tuples, the elements being ordered by their bytes - a function of
   the logical content only (C14). *)
From Coq Require Import ZArith Lia List Bool.
From Cntgs Require Import ListAux Layout Mem Vector Proxy Spec Rep Ordered CompareThm EsizeThm Refine FastEq.
Import ListNotations.
Local Open Scope Z_scope.

(* std::lexicographical_compare over two sequences under a strict order; the same function as
   CompareThm.lexb (LessAsym.lexl_lexb) *)
Fixpoint lexl {A} (lt : A -> A -> bool) (l1 l2 : list A) : bool :=
  match l1, l2 with
  | _, [] => false
  | [], _ :: _ => true
  | a :: x, b :: y => if lt a b then true else if lt b a then false else lexl lt x y
  end.

Lemma lex_lt_app : forall a b x y, length a = length b ->
  lex_lt (a ++ x) (b ++ y) = if lex_lt a b then true else if lex_lt b a then false else lex_lt x y.
Proof.
  induction a as [|x0 a IH]; intros [|y0 b] x y Hl; cbn [length] in Hl; try discriminate.
  - cbn [app lex_lt]. destruct x, y; reflexivity.
  - cbn [app lex_lt]. destruct (x0 <? y0) eqn:E1; [reflexivity|]. destruct (y0 <? x0) eqn:E2; [reflexivity|].
    apply IH. lia.
Qed.

Lemma lex_chunks (c : nat) : (0 < c)%nat -> forall cs1 cs2,
  Forall (fun ch => length ch = c) cs1 -> Forall (fun ch => length ch = c) cs2 ->
  lex_lt (concat cs1) (concat cs2) = lexl lex_lt cs1 cs2.
Proof.
  intros Hc. induction cs1 as [|a cs1 IH]; intros [|b cs2] H1 H2; cbn [concat lexl].
  - reflexivity.
  - inversion H2; subst. destruct b as [|z b]; [cbn [length] in *; lia|]. reflexivity.
  - destruct (a ++ concat cs1); reflexivity.
  - inversion H1; subst. inversion H2; subst. rewrite lex_lt_app by congruence.
    rewrite IH by assumption. reflexivity.
Qed.

Lemma lexl_nils : forall cs1 cs2 : list (list Z),
  Forall (fun ch => length ch = 0%nat) cs1 -> Forall (fun ch => length ch = 0%nat) cs2 ->
  lexl lex_lt cs1 cs2 = (length cs1 <? length cs2)%nat.
Proof.
  induction cs1 as [|a cs1 IH]; intros [|b cs2] H1 H2; cbn [lexl length]; try reflexivity.
  inversion H1 as [|? ? Ha H1']; subst. inversion H2 as [|? ? Hb H2']; subst.
  apply length_zero_iff_nil in Ha. apply length_zero_iff_nil in Hb. subst a b.
  cbn [lex_lt]. exact (IH cs2 H1' H2').
Qed.

Section FastLess.
  Variable L : list param.
  Hypothesis Hwf : wf_plist L = true.
  Hypothesis Hpf : padfree L = true.
  Hypothesis Hnv : has_varying L = false.

  Lemma ebytes_length fixed t m a : tuple_ok L (fixed_counts L fixed) 0 t -> elem_at L m a t ->
    0 <= a -> (SA L | a) -> Z.of_nat (length (ebytes t)) = fst (esize L fixed).
  Proof.
    intros Ht He Ha HaS.
    destruct (elem_packed L Hwf Hpf _ m a t Ht He) as [_ Hend].
    destruct (esize_exact L fixed t a Hwf Hnv Ht Ha HaS) as [E _]. lia.
  Qed.

  Lemma rep_chunks v l : Rep L v l ->
    Forall (fun ch => length ch = Z.to_nat (fst (esize L (v_fixed v)))) (map ebytes l).
  Proof.
    intros [offs R]. apply Forall_map. apply (Forall_of_nth _ []). intros i Hi.
    destruct (rep_nth L Hwf v l offs i R Hi) as (Ha & HaS & _ & Ht & He).
    rewrite <- (ebytes_length (v_fixed v) _ (v_mem v) _ Ht He Ha HaS). symmetry. apply Nat2Z.id.
  Qed.

  Theorem vec_less_content_fast v1 l1 v2 l2 : Rep L v1 l1 -> Rep L v2 l2 ->
    (forallb lxm L && negb (has_varying L) && padfree L && list_eqb (v_fixed v1) (v_fixed v2)) = true ->
    vec_less L v1 v2 = lexl lex_lt (map ebytes l1) (map ebytes l2).
  Proof.
    intros R1 R2 Hc. unfold vec_less. rewrite Hc. apply lt_fast_iff in Hc. destruct Hc as (_ & _ & _ & Hfx).
    pose proof (rep_chunks v1 l1 R1) as C1. pose proof (rep_chunks v2 l2 R2) as C2. rewrite <- Hfx in C2.
    set (c := Z.to_nat (fst (esize L (v_fixed v1)))) in *.
    (* the data of v1 is the concatenation of its chunks *)
    rewrite (proj1 (rep_bytes L Hwf Hpf v1 l1 R1)), (concat_objs_length c _ C1), map_length.
    rewrite (rep_buffer L Hwf Hpf v1 l1 R1), (rep_buffer L Hwf Hpf v2 l2 R2).
    destruct R1 as [o1 R1]. destruct R2 as [o2 R2].
    rewrite (rep_vsize L v1 l1 o1 R1), (rep_vsize L v2 l2 o2 R2).
    destruct l1 as [|t1 l1]; [destruct l2; reflexivity|]. destruct l2 as [|t2 l2]; [reflexivity|].
    change (Z.of_nat (length (t1 :: l1)) =? 0) with false. change (Z.of_nat (length (t2 :: l2)) =? 0) with false.
    cbn [negb]. destruct c as [|c].
    - (* elements without any bytes *)
      rewrite Nat.mul_0_r, Z_nat_ltb. symmetry. rewrite <- (map_length ebytes (t1 :: l1)), <- (map_length ebytes (t2 :: l2)).
      apply lexl_nils; assumption.
    - change (Z.of_nat (length (t1 :: l1) * S c) =? 0) with false. apply (lex_chunks (S c)); [lia|assumption|assumption].
  Qed.
End FastLess.
