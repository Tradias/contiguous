(* C07 — all memory comes from the allocator and is returned to it exactly once. *)
From Coq Require Import ZArith List.
From Cntgs Require Import Layout Mem Vector Spec WorldThm NtLedger Elem ElemLife.
Import ListNotations.
Local Open Scope Z_scope.

(* The ledger automaton ([ledger], WorldThm.v) accepts an event sequence iff every
   allocation yields a fresh block and every deallocation names a live block with the
   allocator, unit size and count it was allocated with.  Construction, ANY history of
   emplace_back / pop_back / erase / erase(first,last) / clear / reserve (valid or not, any
   length), destruction: the ledger is accepted and ends EMPTY — nothing leaks, nothing is
   returned twice, with another size or through another allocator.  For every list of
   trivially relocatable types; block ids are handed out in allocation order. *)
Theorem C07_whole_life_balanced : forall L, all_triv L = true ->
  forall cap budget fixed aid junk h,
  let '(v0, e0) := mkvec L cap budget fixed aid junk 0%nat 1%nat in
  let '((v, nb), e) := lrun L junk (v0, 2%nat) h in
  ledger [] (e0 ++ e ++ destroy L v) = Some [].
Proof. exact (fun L _ => whole_life_ledger_nt L). Qed.
Print Assumptions C07_whole_life_balanced.

(* every single operation transforms the set of owned blocks as the ledger says *)
Theorem C07_step_balanced : forall L, all_triv L = true -> forall junk v nb o,
  ids_ok L v nb ->
  let '((v', nb'), e) := lstep L junk (v, nb) o in
  ledger (blocks_of L v) e = Some (blocks_of L v') /\ ids_ok L v' nb'.
Proof. exact (fun L _ => lstep_ledger_nt L). Qed.
Print Assumptions C07_step_balanced.

(* the destructor returns exactly the owned blocks — for EVERY parameter list *)
Theorem C07_destroy_returns_everything : forall L v,
  (forall b tb, v_bid v = Some b -> t_bid (v_tbl v) = Some tb -> b <> tb) ->
  (has_varying L = false -> t_bid (v_tbl v) = None) ->
  ledger (blocks_of L v) (destroy L v) = Some [].
Proof. exact destroy_ledger. Qed.
Print Assumptions C07_destroy_returns_everything.

Example C07_example :
  let L := [ {| pk := Plain; psz := 1; pal := 1; pty := TU8 |};
             {| pk := Varying; psz := 2; pal := 2; pty := TBlob |} ] in
  let h := [SEmplace [[[1]]; [[5; 5]]]; SReserve 4 16; SEmplace [[[0]]; []]; SErase 0; SReserve 9 40; SClear] in
  let '(v0, e0) := mkvec L 2 4 [] 7 (mfill 170) 0%nat 1%nat in
  let '((v, nb), e) := lrun L (mfill 170) (v0, 2%nat) h in
  length (filter (fun x => match x with EAlloc _ _ _ _ => true | _ => false end) (e0 ++ e ++ destroy L v)) = 6%nat /\
  ledger [] (e0 ++ e ++ destroy L v) = Some [].
Proof. vm_compute. split; reflexivity. Qed.

(* the ledger theorems for EVERY parameter list and EVERY operation, erase with elements behind the erased
   ones and non-trivial value types included (NtLedger.v): constructions, destructions,
   relocations through constructors and byte copies are transparent to the ledger, and no
   operation other than a growing reserve changes which blocks the vector owns *)
Theorem C07_whole_life_balanced_every_list : forall L cap budget fixed aid junk h,
  let '(v0, e0) := mkvec L cap budget fixed aid junk 0%nat 1%nat in
  let '((v, nb), e) := lrun L junk (v0, 2%nat) h in
  ledger [] (e0 ++ e ++ destroy L v) = Some [].
Proof. exact whole_life_ledger_nt. Qed.
Print Assumptions C07_whole_life_balanced_every_list.

Theorem C07_step_balanced_every_list : forall L junk v nb o,
  ids_ok L v nb ->
  let '((v', nb'), e) := lstep L junk (v, nb) o in
  ledger (blocks_of L v) e = Some (blocks_of L v') /\ ids_ok L v' nb'.
Proof. exact lstep_ledger_nt. Qed.
Print Assumptions C07_step_balanced_every_list.

(* The block of a ContiguousElement.  Whole life of an element made from a reference (copy or move form, any list, any value
   types): after construction the ledger holds exactly one block - requested from the
   element's allocator, unit size SA, the rounded-up number of units - and after destruction
   it is empty: the block went back to the same allocator with the same unit size and count,
   nothing else was allocated or freed. *)
Theorem C07_element_block_obtained_once_returned_once : forall mv L ms fls sb aid junk nb,
  let r := elem_from_ref mv L ms fls sb aid junk nb in
  let e := snd (fst r) in
  ledger [] (snd r) = Some [(nb, (aid, SA L, units L (ref_bytes L fls)))] /\
  ledger [] (snd r ++ elem_destroy L e) = Some [].
Proof. exact elem_life_ledger. Qed.
Print Assumptions C07_element_block_obtained_once_returned_once.
