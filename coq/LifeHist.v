(* LifeHist.v — object lifetimes along a history (C06): which objects every operation
   constructs and destroys, for every well-formed parameter list (the relocation of a growing
   reserve: for lists whose span sizes survive a move, cft), and the balance over a valid
   history that erases only up to the end (lt_hist_ok), for lists whose types are non-trivial in
   constructor and destructor alike: the objects constructed so far are exactly the objects
   destroyed so far plus the objects of the elements the vector holds now (in its current
   block).  The canonical positions [cpos] used to say where those are also give C16's
   "addresses are a function of the content". *)
From Coq Require Import ZArith Lia List Bool Permutation.
From Cntgs Require Import ListAux Layout LayoutThm Mem MemLemmas Vector Elem Spec Rep StableThm ElemLemmas Ordered
     Refine LifeThm ElemThm NtBase NtRefine.
Import ListNotations.
Local Open Scope Z_scope.

Definition obj := (nat * Z * Z)%type.       (* block id, offset, size *)
Definition born (e : ev) : option obj :=
  match e with ECtor b o s | ECopyC b o s _ _ | EMoveC b o s _ _ => Some (b, o, s) | _ => None end.
Definition died (e : ev) : option obj :=
  match e with EDtor b o s => Some (b, o, s) | _ => None end.
Definition tag (b : nat) (l : list (Z * Z)) : list obj := map (fun os => (b, fst os, snd os)) l.

Lemma tag_app b l1 l2 : tag b (l1 ++ l2) = tag b l1 ++ tag b l2.
Proof. unfold tag. apply map_app. Qed.

Lemma ctor_evs_life bid l : keep born (map (ctor_ev bid) l) = tag bid l /\ keep died (map (ctor_ev bid) l) = [].
Proof. split; [apply keep_map|apply keep_map_none]; reflexivity. Qed.
Lemma dtor_evs_life bid l : keep died (map (dtor_ev bid) l) = tag bid l /\ keep born (map (dtor_ev bid) l) = [].
Proof. split; [apply keep_map|apply keep_map_none]; reflexivity. Qed.

Lemma destruct_fields_died L xs cnts bid m :
  keep died (snd (destruct_fields L (combine xs cnts) bid m)) = tag bid (obj_addrs ntd L xs cnts) /\
  keep born (snd (destruct_fields L (combine xs cnts) bid m)) = [].
Proof. rewrite destruct_fields_events. apply dtor_evs_life. Qed.

Lemma relocate_objs_born mv p sbid bid : forall n ms m src dst,
  keep born (snd (relocate_objs mv p sbid bid ms m src dst n)) =
    tag bid (map (fun j => (dst + Z.of_nat j * psz p, psz p)) (seq 0 n)) /\
  keep died (snd (relocate_objs mv p sbid bid ms m src dst n)) = [].
Proof.
  induction n as [|n IH]; intros ms m src dst; [split; reflexivity|].
  cbn [relocate_objs]. rewrite objs_S.
  specialize (IH (if mv then mwrite ms src (moved_bytes (psz p)) else ms)
                 (mwrite m dst (mread ms src (Z.to_nat (psz p)))) (src + psz p) (dst + psz p)).
  destruct (relocate_objs mv p sbid bid _ _ (src + psz p) (dst + psz p) n) as [[ms2 m2] evs]. cbn [snd] in *.
  destruct IH as [I1 I2]. destruct mv; cbn [keep born died]; rewrite I1; split; [reflexivity|exact I2|reflexivity|exact I2].
Qed.

(* construct_if_non_trivial<UseMove>(source, target) *)
Lemma construct_fields_born mv sb db L : forall xs ys cnts ms md, length xs = length ys ->
  keep born (snd (construct_fields mv L (combine xs cnts) (combine ys cnts) sb db ms md)) =
    tag db (obj_addrs (ntc mv) L ys cnts) /\
  keep died (snd (construct_fields mv L (combine xs cnts) (combine ys cnts) sb db ms md)) = [].
Proof.
  induction L as [|p L IH]; intros xs ys cnts ms md Hl; [split; reflexivity|].
  destruct xs as [|x xs]; destruct ys as [|y ys]; try discriminate; [split; reflexivity|].
  destruct cnts as [|c cnts]; [split; reflexivity|].
  injection Hl as Hl. specialize (IH xs ys cnts).
  cbn [combine construct_fields obj_addrs].
  destruct (ntc mv p).
  - destruct (relocate_objs_born mv p sb db (Z.to_nat c) ms md x y) as [O1 O2].
    destruct (relocate_objs mv p sb db ms md x y (Z.to_nat c)) as [[ms1 md1] e1].
    destruct (IH ms1 md1 Hl) as [I1 I2].
    destruct (construct_fields mv L (combine xs cnts) (combine ys cnts) sb db ms1 md1) as [[ms2 md2] e2].
    cbn [snd] in *. rewrite !keep_app, O1, O2, I1, I2, tag_app. split; reflexivity.
  - destruct (IH ms md Hl) as [I1 I2].
    destruct (construct_fields mv L (combine xs cnts) (combine ys cnts) sb db ms md) as [[ms2 md2] e2].
    split; assumption.
Qed.

(* relocation inside a vector: source and target of a field have the same offset *)
Lemma relocate_fields_born mv sbid bid L xs cnts ms m :
  keep born (snd (relocate_fields mv L (combine xs cnts) sbid bid ms m 0)) = tag bid (obj_addrs (ntc mv) L xs cnts) /\
  keep died (snd (relocate_fields mv L (combine xs cnts) sbid bid ms m 0)) = [].
Proof.
  rewrite relocate_fields_is_construct, (map_ext _ id), map_id; [apply construct_fields_born; reflexivity|].
  intros [a c]. cbn [fst snd]. rewrite Z.add_0_r. reflexivity.
Qed.

(* loading from a source whose non-trivial objects have been moved from:
   [m'] agrees with [m] on the fields of trivially-constructible types of the table [T] *)
Fixpoint agree (L : list param) (T : list (Z * Z)) (m m' : mem) : Prop :=
  match L, T with
  | p :: L', (x, c) :: T' =>
      (ntc true p = false -> forall y, x <= y < x + c * psz p -> m' y = m y) /\ agree L' T' m m'
  | _, _ => True
  end.

(* the parameter in front of a VaryingSize one - it holds the size - is trivially
   move-constructible: moving the element leaves its bytes in the source *)
Fixpoint cft (L : list param) : bool :=
  match L with
  | p :: (q :: _) as L' => (if is_varying q then negb (ntc true p) else true) && cft L'
  | _ => true
  end.

Lemma before_varying isplain p q L : wf_varying isplain (p :: q :: L) = true -> cft (p :: q :: L) = true ->
  pk q = Varying -> pk p = Plain /\ ntc true p = false.
Proof.
  cbn [wf_varying cft]. unfold is_varying, is_plain. intros Hw Hc Hq. rewrite Hq in Hw, Hc. cbn [kind_eqb] in Hw, Hc.
  apply andb_true_iff in Hc. destruct Hc as [Hc _]. apply negb_true_iff in Hc.
  apply andb_true_iff in Hw. destruct Hw as [_ Hw]. apply andb_true_iff in Hw. destruct Hw as [Hw _].
  split; [destruct (pk p); [reflexivity|discriminate..]|exact Hc].
Qed.

Lemma load_from_agree L : forall pv fc m m' a pvl pvl' isplain,
  Forall wfp L -> wf_varying isplain L = true -> cft L = true ->
  (match L with p :: _ => pk p = Varying -> pvl = pvl' | [] => True end) ->
  agree L (fst (load_from L pv fc m a pvl)) m m' ->
  load_from L pv fc m' a pvl' = load_from L pv fc m a pvl.
Proof.
  induction L as [|p L IH]; intros pv fc m m' a pvl pvl' isplain HF Hwv Hc Hp Ha; [reflexivity|].
  destruct pv as [|pt pv]; [reflexivity|]. destruct fc as [|f fc]; [reflexivity|].
  cbn [load_from] in *. set (a' := align_if (pt <? pal p) (pal p) a) in *.
  replace (match pk p with Plain => 1 | Fixed => f | Varying => pvl' end)
    with (match pk p with Plain => 1 | Fixed => f | Varying => pvl end) by (destruct (pk p); auto).
  set (c := match pk p with Plain => 1 | Fixed => f | Varying => pvl end) in *.
  destruct (load_from L pv fc m (a' + c * psz p) (dec (mread m a' (Z.to_nat (psz p))))) as [r e] eqn:El.
  cbn [fst agree] in Ha. destruct Ha as [Hhead Hrest].
  rewrite (IH pv fc m m' (a' + c * psz p) (dec (mread m a' (Z.to_nat (psz p)))) (dec (mread m' a' (Z.to_nat (psz p)))) (is_plain p)), El;
    [reflexivity|exact (Forall_inv_tail HF)| | | |rewrite El; exact Hrest].
  - cbn [wf_varying] in Hwv. apply andb_true_iff in Hwv. apply Hwv.
  - destruct L; [reflexivity|]. cbn [cft] in Hc. apply andb_true_iff in Hc. apply Hc.
  - (* a VaryingSize field follows: this one holds its size, and its bytes are still there *)
    destruct L as [|q L]; [exact I|]. intros Hq. destruct (before_varying isplain p q L Hwv Hc Hq) as [Hk Hn].
    f_equal. symmetry. apply mread_ext. intros x Hx. apply (Hhead Hn). unfold c. rewrite Hk. lia.
Qed.

Lemma relocate_objs_src_frame mv p sbid bid : forall n ms m src dst y, 0 < psz p ->
  ~ (src <= y < src + Z.of_nat n * psz p) ->
  fst (fst (relocate_objs mv p sbid bid ms m src dst n)) y = ms y.
Proof.
  induction n as [|n IH]; intros ms m src dst y Hs Hy; [reflexivity|].
  cbn [relocate_objs].
  specialize (IH (if mv then mwrite ms src (moved_bytes (psz p)) else ms)
                 (mwrite m dst (mread ms src (Z.to_nat (psz p)))) (src + psz p) (dst + psz p) y Hs ltac:(nia)).
  destruct (relocate_objs mv p sbid bid _ _ (src + psz p) (dst + psz p) n) as [[ms2 m2] evs]. cbn [fst] in *.
  rewrite IH. destruct mv; [|reflexivity]. apply mwrite_moved_out; [exact Hs|nia].
Qed.

Lemma agree_ext L : forall cnts xs m1 m1' m2 m2' lo hi, ordered_from lo (extents L cnts xs) hi ->
  (forall y, lo <= y < hi -> m1' y = m1 y) -> (forall y, lo <= y < hi -> m2' y = m2 y) ->
  agree L (combine xs cnts) m1 m2 -> agree L (combine xs cnts) m1' m2'.
Proof.
  induction L as [|p L IH]; intros cnts xs m1 m1' m2 m2' lo hi Ho H1 H2 Ha; [exact I|].
  destruct xs as [|x0 xs]; [exact I|]. destruct cnts as [|c cnts]; [exact I|].
  cbn [combine agree] in *. cbn [extents ordered_from] in Ho. destruct Ho as (A & B & Ho).
  pose proof (ordered_from_le _ _ _ Ho) as Hle. destruct Ha as [Ah Ar]. split.
  - intros Hn y Hy. rewrite H1, H2 by lia. exact (Ah Hn y Hy).
  - apply (IH cnts xs m1 m1' m2 m2' (x0 + c * psz p) hi Ho); auto; intros y Hy; [apply H1|apply H2]; lia.
Qed.

Lemma relocate_fields_src_frame sbid bid L : forall cnts xs ms m lo hi,
  Forall wfp L -> Forall (fun c => 0 <= c) cnts -> ordered_from lo (extents L cnts xs) hi ->
  let ms' := fst (fst (relocate_fields true L (combine xs cnts) sbid bid ms m 0)) in
  (forall y, ~ (lo <= y < hi) -> ms' y = ms y) /\ agree L (combine xs cnts) ms ms'.
Proof.
  induction L as [|p L IH]; intros cnts xs ms m lo hi HF Hc Ho; cbv zeta; [split; [reflexivity|exact I]|].
  destruct xs as [|x0 xs]; [split; [reflexivity|exact I]|]. destruct cnts as [|c cnts]; [split; [reflexivity|exact I]|].
  cbn [combine relocate_fields agree]. cbn [extents ordered_from] in Ho. destruct Ho as (H1 & H2 & Ho).
  apply Forall_cons_iff in HF. destruct HF as [[Hs _] HF]. inversion Hc; subst.
  pose proof (ordered_from_le _ _ _ Ho) as Hle.
  (* this field is left alone if its type is trivially constructible, and outside its extent anyway *)
  assert (Hfr : forall y, ntc true p = false \/ ~ (x0 <= y < x0 + c * psz p) ->
            fst (fst (if ntc true p then relocate_objs true p sbid bid ms m x0 (x0 + 0) (Z.to_nat c) else (ms, m, []))) y = ms y).
  { intros y Hy. destruct (ntc true p); [|reflexivity]. apply relocate_objs_src_frame; [exact Hs|].
    rewrite Z2Nat.id by lia. destruct Hy; [discriminate|assumption]. }
  destruct (if ntc true p then _ else _) as [[ms1 m1] e1]. cbn [fst] in Hfr.
  specialize (IH cnts xs ms1 m1 (x0 + c * psz p) hi HF ltac:(assumption) Ho).
  destruct (relocate_fields true L (combine xs cnts) sbid bid ms1 m1 0) as [[ms2 m2] e2]. cbn [fst] in *.
  destruct IH as [I1 I2]. split; [|split].
  - intros y Hy. rewrite I1 by lia. apply Hfr. right. lia.
  - intros Hn y Hy. rewrite I1 by lia. apply Hfr. left. exact Hn.
  - apply (agree_ext L cnts xs ms1 ms ms2 ms2 (x0 + c * psz p) hi Ho); auto.
    intros y Hy. symmetry. apply Hfr. right. lia.
Qed.

Definition eobjs (sel : param -> bool) (L : list param) (a : Z) (t : tuple) : list (Z * Z) :=
  obj_addrs sel L (fst (place L (cnts_of t) a)) (cnts_of t).
Fixpoint vobjs (sel : param -> bool) (L : list param) (offs : list Z) (l : list tuple) : list (Z * Z) :=
  match offs, l with
  | a :: o, t :: r => eobjs sel L a t ++ vobjs sel L o r
  | _, _ => []
  end.

Lemma vobjs_app sel L : forall o1 l1 o2 l2, length o1 = length l1 ->
  vobjs sel L (o1 ++ o2) (l1 ++ l2) = vobjs sel L o1 l1 ++ vobjs sel L o2 l2.
Proof.
  induction o1 as [|a o1 IH]; intros [|t l1] o2 l2 Hl; cbn in Hl; try discriminate; [reflexivity|].
  cbn [app vobjs]. rewrite IH by lia. apply app_assoc.
Qed.

Lemma emplace_back_events L v t :
  snd (emplace_back L v t) =
    snd (fst (store L t (bidn (v_bid v)) (v_mem v) (if has_varying L then first_align L (v_last v) else v_stride v * v_count v))).
Proof. unfold emplace_back. destruct (has_varying L); destruct (store L t _ _ _) as [[m evs] e]; reflexivity. Qed.

Lemma keep_dealloc_tbl L v : keep born (dealloc_tbl L v) = [] /\ keep died (dealloc_tbl L v) = [].
Proof. unfold dealloc_tbl. destruct (t_bid (v_tbl v)); split; reflexivity. Qed.
Lemma keep_dealloc_mem L v : keep born (dealloc_mem L v) = [] /\ keep died (dealloc_mem L v) = [].
Proof. unfold dealloc_mem. destruct (v_bid v); split; reflexivity. Qed.

Lemma reserve_bid L v n b junk bid tbid :
  v_bid (fst (reserve L v n b junk bid tbid)) = if v_cap v <? n then Some bid else v_bid v.
Proof. unfold reserve. destruct (v_cap v <? n); [destruct (insert_into true true L v bid junk) as [[v1 m] e1]|]; reflexivity. Qed.

Lemma reserve_life L v n b junk bid tbid :
  let e := if v_cap v <? n then snd (insert_into true true L v bid junk) else [] in
  keep born (snd (reserve L v n b junk bid tbid)) = keep born e /\ keep died (snd (reserve L v n b junk bid tbid)) = keep died e.
Proof.
  cbv zeta. unfold reserve. destruct (v_cap v <? n); [|split; reflexivity].
  destruct (insert_into true true L v bid junk) as [[v1 m] e1]. cbn [snd].
  destruct (keep_dealloc_tbl L v) as [T1 T2]. destruct (keep_dealloc_mem L v) as [M1 M2].
  cbn [app keep born died]. rewrite !keep_app, M1, M2.
  destruct (has_varying L); cbn [keep born died app]; rewrite ?T1, ?T2, !app_nil_r; split; reflexivity.
Qed.

Section LifeHist.
  Variable L : list param.
  Hypothesis Hwf : wf_plist L = true.
  Let HF : Forall wfp L := wf_plist_Forall L Hwf.

  Lemma emplace_evs v t : tuple_ok L (fixed_counts L (v_fixed v)) 0 t ->
    let a := if has_varying L then first_align L (v_last v) else v_stride v * v_count v in
    keep born (snd (emplace_back L v t)) = tag (bidn (v_bid v)) (eobjs (ntc false) L a t) /\
    keep died (snd (emplace_back L v t)) = [].
  Proof.
    intros _. cbv zeta. rewrite emplace_back_events. unfold store. rewrite store_from_events. apply ctor_evs_life.
  Qed.

  Definition etab (a : Z) (t : tuple) : list (Z * Z) := combine (fst (place L (cnts_of t) a)) (cnts_of t).

  Lemma vobjs_none sel : forallb (fun p => negb (sel p)) L = true -> forall offs l, vobjs sel L offs l = [].
  Proof.
    intros H. induction offs as [|a offs IH]; intros [|t l]; cbn [vobjs]; try reflexivity.
    unfold eobjs. rewrite obj_addrs_none by exact H. apply IH.
  Qed.

  Lemma rep_extents v l offs j : RepO L v l offs -> (j < length l)%nat ->
    ordered_from (nth j offs 0) (extents L (cnts_of (nth j l [])) (fst (place L (cnts_of (nth j l [])) (nth j offs 0))))
      (elem_end L (nth j offs 0) (nth j l [])).
  Proof. intros R Hj. exact (proj2 (proj2 (proj2 (rep_elem_view L Hwf v l offs j (v_mem v) R Hj (fun _ _ => eq_refl))))). Qed.

  (* the load path finds the field table of element j in [ms], and in every memory that holds
     the same bytes inside the element *)
  Definition tab_in v (l : list tuple) (offs : list Z) (j : nat) (ms : mem) : Prop :=
    forall m', (forall x, nth j offs 0 <= x < elem_end L (nth j offs 0) (nth j l []) -> m' x = ms x) ->
    fst (load L (v_fixed v) m' (nth j offs 0)) = etab (nth j offs 0) (nth j l []).

  Lemma rep_tab v l offs j ms : RepO L v l offs -> (j < length l)%nat ->
    (forall x, nth j offs 0 <= x < elem_end L (nth j offs 0) (nth j l []) -> ms x = v_mem v x) -> tab_in v l offs j ms.
  Proof.
    intros R Hj Hms m' Hm'. apply (rep_elem_view L Hwf v l offs j m' R Hj).
    intros x Hx. rewrite Hm' by exact Hx. apply Hms. exact Hx.
  Qed.

  Lemma destruct_elem_tab v l offs i ms : RepO L v l offs -> (i < length l)%nat ->
    fst (load L (v_fixed v) ms (nth i offs 0)) = etab (nth i offs 0) (nth i l []) ->
    let r := destruct_elem L (set_mem v ms) (Z.of_nat i) in
    snd r = map (dtor_ev (bidn (v_bid v))) (eobjs ntd L (nth i offs 0) (nth i l [])) /\
    exists m', fst r = set_mem v m' /\
      forall y, ~ (nth i offs 0 <= y < elem_end L (nth i offs 0) (nth i l [])) -> m' y = ms y.
  Proof.
    intros R Hi Htab. cbv zeta. unfold destruct_elem, eobjs.
    destruct (all_dtriv L) eqn:Hd.
    { cbn [fst snd]. rewrite obj_addrs_none by exact Hd. split; [reflexivity|]. exists ms. split; [reflexivity|auto]. }
    change (eaddr L (set_mem v ms) (Z.of_nat i)) with (eaddr L v (Z.of_nat i)). rewrite (rep_addr L v l offs i R Hi).
    cbn [v_fixed v_mem v_bid set_mem]. rewrite Htab. unfold etab.
    set (a := nth i offs 0) in *. set (t := nth i l []) in *.
    pose proof (fun y => destruct_fields_frame L _ _ (bidn (v_bid v)) ms _ _ y HF (cnts_of_nonneg t) (rep_extents v l offs i R Hi)) as Hfr.
    pose proof (destruct_fields_events L (fst (place L (cnts_of t) a)) (cnts_of t) (bidn (v_bid v)) ms) as He.
    destruct (destruct_fields L _ (bidn (v_bid v)) ms) as [m' evs]. cbn [fst snd] in *.
    split; [exact He|]. exists m'. split; [reflexivity|exact Hfr].
  Qed.

  Lemma destruct_range_events v l offs : RepO L v l offs -> forall n i ms,
    (i + n <= length l)%nat ->
    (forall j, (i <= j < i + n)%nat -> tab_in v l offs j ms) ->
    snd (destruct_range L (set_mem v ms) (Z.of_nat i) n) =
      map (dtor_ev (bidn (v_bid v))) (vobjs ntd L (firstn n (skipn i offs)) (firstn n (skipn i l))).
  Proof.
    intros R. pose proof (rep_len L v l offs R) as Hlen.
    induction n as [|n IH]; intros i ms Hin Htab; [reflexivity|].
    cbn [destruct_range].
    destruct (destruct_elem_tab v l offs i ms R ltac:(lia) (Htab i ltac:(lia) ms (fun _ _ => eq_refl))) as (E1 & m1 & Em & F1).
    destruct (destruct_elem L (set_mem v ms) (Z.of_nat i)) as [v1 e1]. cbn [fst snd] in *. subst v1.
    replace (Z.of_nat i + 1) with (Z.of_nat (S i)) by lia.
    assert (E2 := IH (S i) m1 ltac:(lia)).
    destruct (destruct_range L (set_mem v m1) (Z.of_nat (S i)) n) as [v2 e2]. cbn [snd] in *.
    rewrite (skipn_nth_cons 0 i offs), (skipn_nth_cons ([] : tuple) i l) by lia.
    cbn [firstn vobjs]. rewrite map_app, E1, E2; [reflexivity|].
    (* the later elements lie behind this one *)
    intros j Hj m' Hm'. apply (Htab j ltac:(lia)). intros x Hx. rewrite Hm' by exact Hx.
    apply F1. pose proof (rep_pair L Hwf v l offs i j R ltac:(lia)). lia.
  Qed.

  Lemma destruct_range_evs v l offs : RepO L v l offs -> forall n i ms,
    (i + n <= length l)%nat ->
    (forall x, nth i offs 0 <= x -> ms x = v_mem v x) ->
    keep died (snd (destruct_range L (set_mem v ms) (Z.of_nat i) n)) =
      tag (bidn (v_bid v)) (vobjs ntd L (firstn n (skipn i offs)) (firstn n (skipn i l))) /\
    keep born (snd (destruct_range L (set_mem v ms) (Z.of_nat i) n)) = [].
  Proof.
    intros R n i ms Hin Hms. rewrite (destruct_range_events v l offs R n i ms Hin); [apply dtor_evs_life|].
    intros j Hj. apply (rep_tab v l offs j ms R ltac:(lia)).
    intros x Hx. apply Hms. pose proof (rep_offs_le L Hwf v l offs i j R ltac:(lia)). lia.
  Qed.

  Lemma erase_to_end_evs v l offs i : RepO L v l offs -> 0 <= i <= Z.of_nat (length l) ->
    let e := snd (erase_range L v i (Z.of_nat (length l))) in
    keep died e = tag (bidn (v_bid v)) (vobjs ntd L (skipn (Z.to_nat i) offs) (skipn (Z.to_nat i) l)) /\ keep born e = [].
  Proof.
    intros R Hi. cbv zeta. unfold erase_range.
    rewrite destruct_range_guard, (rep_vsize L v l offs R), Z.ltb_irrefl. cbn [andb].
    pose proof (destruct_range_evs v l offs R (Z.to_nat (Z.of_nat (length l) - i)) (Z.to_nat i) (v_mem v) ltac:(lia) ltac:(auto)) as H.
    rewrite set_mem_id, Z2Nat.id, !firstn_all2 in H by (rewrite ?skipn_length, ?(rep_len L v l offs R); lia).
    destruct (destruct_range L v i _) as [v1 e1]. cbn [snd]. rewrite app_nil_r. exact H.
  Qed.

  (* relocating element k writes moved-from bytes only inside the non-trivially constructible
     fields of that element (relocate_fields_src_frame), so in every element, before or behind,
     the trivially constructible fields keep the bytes of the original memory (agree).  The last
     clause is an implication, so that relocate_elems_evs needs no hypothesis about the elements
     already moved from *)
  Lemma relocate_elems_life bid v l offs : RepO L v l offs ->
    forall n k ms m,
    (k + n = length l)%nat ->
    (forall x, eo_end L 0 (firstn k offs) (firstn k l) <= x -> ms x = v_mem v x) ->
    let r := relocate_elems true L (set_mem v ms) bid m (Z.of_nat k) n in
    keep born (snd r) = tag bid (vobjs (ntc true) L (skipn k offs) (skipn k l)) /\
    keep died (snd r) = [] /\
    exists msf, fst (fst r) = set_mem v msf /\
      forall j, (j < length l)%nat -> ((j < k)%nat -> agree L (etab (nth j offs 0) (nth j l [])) (v_mem v) ms) ->
        agree L (etab (nth j offs 0) (nth j l [])) (v_mem v) msf.
  Proof.
    intros R. pose proof (rep_len L v l offs R) as Hlen.
    induction n as [|n IH]; intros k ms m Hk Hms; cbv zeta.
    { cbn [relocate_elems fst snd keep]. rewrite !skipn_all2 by lia. split; [reflexivity|]. split; [reflexivity|].
      exists ms. split; [reflexivity|]. intros j Hj Hag. apply Hag. lia. }
    cbn [relocate_elems].
    destruct (eo_end_firstn_le L k 0 offs l _ (r_order _ _ _ _ R) ltac:(lia)) as [Hle _].
    pose proof (elem_end_ge L Hwf (nth k offs 0) (nth k l [])) as Hge.
    destruct (rep_elem_view L Hwf v l offs k ms R ltac:(lia)) as (Ea & Et & _ & Hpo).
    { intros x Hx. apply Hms. lia. }
    rewrite Ea. cbn [v_fixed v_mem v_bid set_mem]. rewrite Et.
    set (a := nth k offs 0) in *. set (t := nth k l []) in *.
    destruct (relocate_fields_born true (bidn (v_bid v)) bid L (fst (place L (cnts_of t) a)) (cnts_of t) ms m) as [V1 V2].
    destruct (relocate_fields_src_frame (bidn (v_bid v)) bid L (cnts_of t) (fst (place L (cnts_of t) a)) ms m a (elem_end L a t)
                HF (cnts_of_nonneg t) Hpo) as [Sfr Sag].
    destruct (relocate_fields true L _ (bidn (v_bid v)) bid ms m 0) as [[ms1 m1] e1]. cbn [fst snd] in V1, V2, Sfr, Sag.
    change (set_mem (set_mem v ms) ms1) with (set_mem v ms1). replace (Z.of_nat k + 1) with (Z.of_nat (S k)) by lia.
    destruct (IH (S k) ms1 m1 ltac:(lia)) as (I1 & I2 & msf & E & F).
    { intros y Hy. rewrite eo_end_firstn_S in Hy by lia. fold a t in Hy. rewrite Sfr by lia. apply Hms. lia. }
    destruct (relocate_elems true L (set_mem v ms1) bid m1 (Z.of_nat (S k)) n) as [[s2 m2] e2]. cbn [fst snd] in *.
    rewrite (skipn_nth_cons 0 k offs), (skipn_nth_cons ([] : tuple) k l) by lia.
    cbn [vobjs]. rewrite tag_app, !keep_app, V1, V2, I1, I2.
    split; [reflexivity|]. split; [reflexivity|]. exists msf. split; [exact E|].
    intros j Hj Hag. apply (F j Hj). intros Hjk. destruct (Nat.eq_dec j k) as [->|Hne].
    - (* this element: what the relocation of its fields left *)
      fold a t. apply (agree_ext L (cnts_of t) _ ms (v_mem v) ms1 ms1 a (elem_end L a t) Hpo); auto.
      intros y Hy. symmetry. apply Hms. lia.
    - (* an earlier element: not touched *)
      pose proof (rep_pair L Hwf v l offs j k R ltac:(lia)) as Hbef.
      apply (agree_ext L _ _ (v_mem v) (v_mem v) ms ms1 _ _ (rep_extents v l offs j R Hj)); auto.
      + intros y Hy. apply Sfr. lia.
      + apply Hag. lia.
  Qed.

  Lemma relocate_elems_evs bid v l offs : RepO L v l offs ->
    forall n k ms m,
    (k + n = length l)%nat ->
    (forall x, eo_end L 0 (firstn k offs) (firstn k l) <= x -> ms x = v_mem v x) ->
    (forall x, 0 <= x < dend L v -> m x = v_mem v x) ->
    keep born (snd (relocate_elems true L (set_mem v ms) bid m (Z.of_nat k) n)) =
      tag bid (vobjs (ntc true) L (skipn k offs) (skipn k l)) /\
    keep died (snd (relocate_elems true L (set_mem v ms) bid m (Z.of_nat k) n)) = [].
  Proof.
    intros R n k ms m Hk Hms _. destruct (relocate_elems_life bid v l offs R n k ms m Hk Hms) as (B & D & _). split; assumption.
  Qed.

  Lemma relocate_elems_src bid v l offs : RepO L v l offs ->
    forall n k ms m,
    (k + n = length l)%nat ->
    (forall x, eo_end L 0 (firstn k offs) (firstn k l) <= x -> ms x = v_mem v x) ->
    (forall j, (j < k)%nat -> agree L (etab (nth j offs 0) (nth j l [])) (v_mem v) ms) ->
    exists msf, fst (fst (relocate_elems true L (set_mem v ms) bid m (Z.of_nat k) n)) = set_mem v msf /\
      forall j, (j < length l)%nat -> agree L (etab (nth j offs 0) (nth j l [])) (v_mem v) msf.
  Proof.
    intros R n k ms m Hk Hms Hag. destruct (relocate_elems_life bid v l offs R n k ms m Hk Hms) as (_ & _ & msf & E & F).
    exists msf. split; [exact E|]. intros j Hj. apply (F j Hj). exact (Hag j).
  Qed.

  Lemma tables_after_relocation v l offs msf : RepO L v l offs -> cft L = true ->
    (forall j, (j < length l)%nat -> agree L (etab (nth j offs 0) (nth j l [])) (v_mem v) msf) ->
    forall j, (j < length l)%nat -> tab_in v l offs j msf.
  Proof.
    intros R Hcft Hag j Hj m' Hm'.
    pose proof (rep_tab v l offs j (v_mem v) R Hj (fun _ _ => eq_refl) (v_mem v) (fun _ _ => eq_refl)) as Et.
    rewrite <- Et. unfold load. f_equal.
    apply (load_from_agree L (prevs L) _ (v_mem v) m' _ 0 0 false HF); auto.
    - apply wf_plist_varying; auto.
    - destruct L; auto.
    - fold (load L (v_fixed v) (v_mem v) (nth j offs 0)). rewrite Et.
      exact (agree_ext L _ _ (v_mem v) (v_mem v) msf m' _ _ (rep_extents v l offs j R Hj) (fun _ _ => eq_refl) Hm' (Hag j Hj)).
  Qed.

  (* the two phases of insert_into, each in the shape it has in insert_into's body *)
  Lemma relocate_all_life v l offs bid m : RepO L v l offs -> cft L = true ->
    let r := if all_ctriv true L then (v, m, []) else relocate_elems true L v bid m 0 (length l) in
    keep born (snd r) = tag bid (vobjs (ntc true) L offs l) /\ keep died (snd r) = [] /\
    exists msf, fst (fst r) = set_mem v msf /\
      forall j, (j < length l)%nat -> tab_in v l offs j msf.
  Proof.
    intros R Hcft. cbv zeta. destruct (all_ctriv true L) eqn:Hct.
    - cbn [fst snd keep]. rewrite (vobjs_none (ntc true) Hct). split; [reflexivity|]. split; [reflexivity|].
      exists (v_mem v). split; [symmetry; apply set_mem_id|].
      intros j Hj. exact (rep_tab v l offs j (v_mem v) R Hj (fun _ _ => eq_refl)).
    - pose proof (relocate_elems_life bid v l offs R (length l) 0 (v_mem v) m eq_refl ltac:(reflexivity)) as H.
      rewrite set_mem_id in H. destruct H as (B & D & msf & E & F).
      split; [exact B|]. split; [exact D|]. exists msf. split; [exact E|].
      apply (tables_after_relocation v l offs msf R Hcft). intros j Hj. apply (F j Hj). lia.
  Qed.

  Lemma destruct_all_tab (c : bool) v l offs msf : RepO L v l offs ->
    (forall j, (j < length l)%nat -> tab_in v l offs j msf) ->
    let r := if c && negb (all_dtriv L) then destruct_range L (set_mem v msf) 0 (length l) else (set_mem v msf, []) in
    snd r = map (dtor_ev (bidn (v_bid v))) (if c then vobjs ntd L offs l else []).
  Proof.
    intros R Htab. cbv zeta. destruct c; [|reflexivity]. destruct (all_dtriv L) eqn:Hd; cbn [andb negb].
    - rewrite (vobjs_none ntd Hd). reflexivity.
    - pose proof (destruct_range_events v l offs R (length l) 0 msf (le_n _) (fun j Hj => Htab j (proj2 Hj))) as H.
      cbn [skipn] in H. rewrite !firstn_all2 in H by (rewrite ?(rep_len L v l offs R); lia). exact H.
  Qed.

  Lemma insert_into_evs destr v l offs bid junk : RepO L v l offs -> cft L = true ->
    keep born (snd (insert_into true destr L v bid junk)) = tag bid (vobjs (ntc true) L offs l) /\
    keep died (snd (insert_into true destr L v bid junk)) =
      (if destr then tag (bidn (v_bid v)) (vobjs ntd L offs l) else []).
  Proof.
    intros R Hcft. unfold insert_into.
    destruct (all_ctriv true L && (negb destr || all_dtriv L)) eqn:G.
    - apply andb_true_iff in G. destruct G as [Hct G]. cbn [snd keep born died].
      rewrite (vobjs_none (ntc true) Hct). split; [reflexivity|].
      destruct destr; [|reflexivity]. rewrite (vobjs_none ntd G). reflexivity.
    - rewrite (rep_vsize L v l offs R), Nat2Z.id.
      destruct (relocate_all_life v l offs bid (mcopy (v_mem v) 0 junk 0 (dend L v)) R Hcft) as (B1 & D1 & msf & E & Htab).
      destruct (if all_ctriv true L then _ else _) as [[src1 m1] e1]. cbn [fst snd] in B1, D1, E. subst src1.
      change (vsize L (set_mem v msf)) with (vsize L v). rewrite (rep_vsize L v l offs R), Nat2Z.id.
      pose proof (destruct_all_tab destr v l offs msf R Htab) as E2.
      destruct (if destr && negb (all_dtriv L) then _ else _) as [src2 e2]. cbn [snd] in *.
      destruct (dtor_evs_life (bidn (v_bid v)) (if destr then vobjs ntd L offs l else [])) as [D2 B2].
      cbn [app keep born died]. rewrite !keep_app, B1, D1, E2, B2, D2, app_nil_r. split; [reflexivity|].
      destruct destr; reflexivity.
  Qed.

  (* canonical positions: tight packing makes them a function of the list *)
  Fixpoint cpos (lo : Z) (l : list tuple) : list Z :=
    match l with
    | [] => []
    | t :: r => let a := first_align L lo in a :: cpos (elem_end L a t) r
    end.

  Lemma tight_cpos : forall offs l lo hi, elems_tight L lo offs l hi -> offs = cpos lo l.
  Proof.
    induction offs as [|a offs IH]; intros [|t l] lo hi H; cbn [elems_tight] in H; try contradiction; [reflexivity|].
    destruct H as [-> H]. cbn [cpos]. f_equal. eapply IH; eauto.
  Qed.

  Lemma rep_cpos v l offs : RepO L v l offs -> offs = cpos 0 l.
  Proof. intros R. eapply tight_cpos. exact (r_tight _ _ _ _ R). Qed.

  Lemma cpos_app : forall l1 lo l2, cpos lo (l1 ++ l2) = cpos lo l1 ++ cpos (eo_end L lo (cpos lo l1) l1) l2.
  Proof.
    induction l1 as [|t l1 IH]; intros lo l2; [reflexivity|].
    cbn [app cpos eo_end]. f_equal. apply IH.
  Qed.

  Lemma cpos_length : forall l lo, length (cpos lo l) = length l.
  Proof. induction l as [|t l IH]; intros lo; cbn [cpos length]; [reflexivity|]. f_equal. apply IH. Qed.

  Lemma cpos_firstn k : forall l lo, cpos lo (firstn k l) = firstn k (cpos lo l).
  Proof.
    induction k as [|k IH]; intros [|t l] lo; try reflexivity. cbn [firstn cpos]. f_equal. apply IH.
  Qed.

  (* C16, every list: the addresses of the elements, relative to data_begin(), are a function of
     the content; what keeps a prefix of the list keeps the addresses of that prefix *)
  Theorem addresses_from_content v l offs k : RepO L v l offs -> (k < length l)%nat ->
    eaddr L v (Z.of_nat k) = nth k (cpos 0 l) 0.
  Proof. intros R Hk. rewrite (rep_addr L v l offs k R Hk), (rep_cpos v l offs R). reflexivity. Qed.

  Theorem common_prefix_same_addresses v l offs v' l' offs' n k :
    RepO L v l offs -> RepO L v' l' offs' -> firstn n l = firstn n l' ->
    (k < n)%nat -> (k < length l)%nat -> (k < length l')%nat ->
    eaddr L v' (Z.of_nat k) = eaddr L v (Z.of_nat k).
  Proof.
    intros R R' Hp Hk Hl Hl'.
    rewrite (addresses_from_content v l offs k R Hl), (addresses_from_content v' l' offs' k R' Hl').
    rewrite <- (nth_firstn_ (cpos 0 l) n k 0 Hk), <- (nth_firstn_ (cpos 0 l') n k 0 Hk).
    rewrite <- !cpos_firstn, Hp. reflexivity.
  Qed.

  Lemma emplace_position v l offs : RepO L v l offs ->
    (if has_varying L then first_align L (v_last v) else v_stride v * v_count v) =
      first_align L (eo_end L 0 offs l).
  Proof.
    intros R. pose proof (r_loc _ _ _ _ R) as Hloc.
    destruct (et_hi L _ _ _ _ (r_tight _ _ _ _ R)) as [Hd|Hd]; unfold dend in Hd; destruct (has_varying L) eqn:Hv.
    - rewrite Hd. reflexivity.
    - rewrite Hd. symmetry. apply first_align_aligned; auto. rewrite <- Hd.
      destruct Hloc as (_ & _ & (_ & HsS & _)). apply Z.divide_mul_l. exact HsS.
    - rewrite Hd. apply first_align_idem. exact Hwf.
    - exact Hd.
  Qed.

  (* one step with fresh block ids; WorldThm.lstep / lrun (C07) are the same functions written
     with patterns; C06 is stated over these *)
  Definition lstep (junk : mem) (st : vec * nat) (o : sop) : (vec * nat) * list ev :=
    let '(v, nb) := st in
    match o with
    | SEmplace t => let r := emplace_back L v t in ((fst r, nb), snd r)
    | SPopBack => let r := pop_back L v in ((fst r, nb), snd r)
    | SErase i => let r := erase L v i in ((fst r, nb), snd r)
    | SEraseRange i j => let r := erase_range L v i j in ((fst r, nb), snd r)
    | SClear => let r := clear L v in ((fst r, nb), snd r)
    | SReserve n b => let r := reserve L v n b junk nb (S nb) in ((fst r, S (S nb)), snd r)
    end.

  (* erase only up to the end: NtRefine.nt_ok L s o unfolds to all_triv L = true \/ lt_ok s o *)
  Definition lt_ok (s : svec) (o : sop) : Prop :=
    match o with
    | SErase i => i + 1 = Z.of_nat (length (s_elems s))
    | SEraseRange i j => j = Z.of_nat (length (s_elems s))
    | _ => True
    end.

  Lemma lstep_vstep junk v nb o : (forall n b, o <> SReserve n b) ->
    fst (lstep junk (v, nb) o) = (vstep L junk v o, nb) /\ v_bid (vstep L junk v o) = v_bid v.
  Proof.
    intros Hn. split; [|exact (proj1 (proj2 (vstep_shape L junk v o Hn)))].
    destruct o; try reflexivity. exfalso. exact (Hn _ _ eq_refl).
  Qed.

  Lemma lstep_rep junk v nb s o :
    Rep L v (s_elems s) -> v_cap v = s_cap s -> svalid L (fixed_counts L (v_fixed v)) s o -> nt_okx L s o ->
    (exists b0, v_bid v = Some b0 /\ (b0 < nb)%nat) ->
    let v' := fst (fst (lstep junk (v, nb) o)) in
    let nb' := snd (fst (lstep junk (v, nb) o)) in
    Rep L v' (s_elems (sstep s o)) /\ v_cap v' = s_cap (sstep s o) /\ v_fixed v' = v_fixed v /\
    (exists b0, v_bid v' = Some b0 /\ (b0 < nb')%nat).
  Proof.
    intros R Hc Hv Hx Hb. cbv zeta.
    assert (Hd : (forall n b, o <> SReserve n b) \/ exists n b, o = SReserve n b) by (destruct o; [left; discriminate..|right; eauto]).
    destruct Hd as [Hn|(n & b & ->)].
    - destruct (lstep_vstep junk v nb o Hn) as [-> Hbid]. cbn [fst snd]. rewrite Hbid.
      destruct (vstep_rep_ntx L Hwf junk v s o R Hc Hv Hx) as (R' & Hc' & Hf'). auto.
    - cbn [lstep fst snd sstep s_elems s_cap].
      destruct (reserve_rep_nt L Hwf v (s_elems s) n b junk nb (S nb) R) as (H1 & H2 & H3).
      split; [exact H1|]. split; [lia|]. split; [exact H3|].
      rewrite reserve_bid. destruct (v_cap v <? n); [exists nb; split; [reflexivity|lia]|].
      destruct Hb as (b0 & E & Hlt). exists b0. split; [exact E|lia].
  Qed.

  (* a type is non-trivial in its constructors and its destructor alike, so what is constructed
     is what has to be destroyed; Hcft enters through the reserve case of lstep_perm *)
  Hypothesis Hsame : forall mv p, In p L -> ntc mv p = ntd p.
  Hypothesis Hcft : cft L = true.

  Lemma vobjs_same mv : forall offs l, vobjs (ntc mv) L offs l = vobjs ntd L offs l.
  Proof.
    induction offs as [|a offs IH]; intros [|t l]; cbn [vobjs]; try reflexivity.
    unfold eobjs. rewrite (obj_addrs_same _ _ L _ _ (Hsame mv)). f_equal. apply IH.
  Qed.

  Lemma eobjs_same mv mv' a t : eobjs (ntc mv) L a t = eobjs (ntc mv') L a t.
  Proof. apply obj_addrs_same. intros p Hp. rewrite (Hsame mv' p Hp). exact (Hsame mv p Hp). Qed.

  (* the objects the vector holds: every object of every element, in its current block *)
  Definition live (v : vec) (l : list tuple) : list obj := tag (bidn (v_bid v)) (vobjs (ntc true) L (cpos 0 l) l).

  Lemma vobjs_split sel k offs l : length offs = length l ->
    vobjs sel L offs l = vobjs sel L (firstn k offs) (firstn k l) ++ vobjs sel L (skipn k offs) (skipn k l).
  Proof.
    intros Hl. rewrite <- vobjs_app by (rewrite !firstn_length; lia). rewrite !firstn_skipn. reflexivity.
  Qed.

  Lemma born_died_allocs a u n bid : keep born [EAlloc a u n bid] = [] /\ keep died [EAlloc a u n bid] = [].
  Proof. split; reflexivity. Qed.

  Lemma erase_to_end_perm v l offs i : RepO L v l offs -> 0 <= i <= Z.of_nat (length l) ->
    let r := erase_range L v i (Z.of_nat (length l)) in
    Permutation (live v l ++ keep born (snd r)) (keep died (snd r) ++ live (fst r) (firstn (Z.to_nat i) l)).
  Proof.
    intros R Hi. cbv zeta. destruct (erase_to_end_evs v l offs i R Hi) as [-> ->]. rewrite app_nil_r.
    unfold live. rewrite (proj2 (erase_range_no_alloc L v i _)), <- (rep_cpos v l offs R).
    rewrite (vobjs_split (ntc true) (Z.to_nat i) offs l (rep_len L v l offs R)), tag_app, cpos_firstn, <- (rep_cpos v l offs R).
    rewrite <- (vobjs_same true). apply Permutation_app_comm.
  Qed.

  (* a trivially relocatable list holds no object with a lifetime; erasing from it is one memmove *)
  Lemma triv_balance v v' l l' evs : all_triv L = true -> keep born evs = [] /\ keep died evs = [] ->
    Permutation (live v l ++ keep born evs) (keep died evs ++ live v' l').
  Proof.
    intros Htr [-> ->]. apply andb_true_iff in Htr. destruct Htr as [Hct _].
    unfold live. rewrite !(vobjs_none (ntc true) Hct). apply Permutation_refl.
  Qed.

  Lemma move_forward_triv_life w from to : all_triv L = true ->
    keep born (snd (move_forward L w from to)) = [] /\ keep died (snd (move_forward L w from to)) = [].
  Proof.
    intros Htr. unfold move_forward, move_forward_triv. rewrite Htr.
    destruct (has_varying L && _); [split; reflexivity|]. destruct (has_varying L); split; reflexivity.
  Qed.

  Lemma erase_triv_life v i : all_triv L = true ->
    keep born (snd (erase L v i)) = [] /\ keep died (snd (erase L v i)) = [].
  Proof.
    intros Htr. pose proof (proj2 (proj1 (andb_true_iff _ _) Htr)) as Hd.
    unfold erase, destruct_elem. rewrite Hd.
    pose proof (move_forward_triv_life v (i + 1) i Htr) as H. destruct (move_forward L v (i + 1) i) as [v2 e2]. exact H.
  Qed.

  Lemma erase_range_triv_life v i j : all_triv L = true ->
    keep born (snd (erase_range L v i j)) = [] /\ keep died (snd (erase_range L v i j)) = [].
  Proof.
    intros Htr. pose proof (proj2 (proj1 (andb_true_iff _ _) Htr)) as Hd.
    unfold erase_range. rewrite Hd. destruct ((j <? vsize L v) && negb (i =? j)); [|split; reflexivity].
    pose proof (move_forward_triv_life v j i Htr) as H. destruct (move_forward L v j i) as [v2 e2]. exact H.
  Qed.

  Lemma lstep_perm junk v nb s o offs :
    RepO L v (s_elems s) offs -> svalid L (fixed_counts L (v_fixed v)) s o -> nt_ok L s o ->
    let v' := fst (fst (lstep junk (v, nb) o)) in
    let evs := snd (lstep junk (v, nb) o) in
    Permutation (live v (s_elems s) ++ keep born evs) (keep died evs ++ live v' (s_elems (sstep s o))).
  Proof.
    intros R Hv Hnt. cbv zeta. pose proof (rep_vsize L v _ offs R) as Hsz.
    destruct o as [t| |i|i j| |n b]; cbn [lstep fst snd sstep s_elems svalid] in *.
    - destruct Hv as [_ Ht]. destruct (emplace_evs v t Ht) as [B D].
      rewrite (emplace_position v _ offs R), (eobjs_same false true) in B.
      rewrite B, D. unfold live. rewrite (proj1 (proj2 (emplace_back_no_alloc L v t))), cpos_app, <- (rep_cpos v _ offs R).
      rewrite vobjs_app by exact (rep_len L v _ offs R). cbn [cpos vobjs]. rewrite app_nil_r, tag_app. apply Permutation_refl.
    - rewrite pop_back_as_erase_range, removelast_firstn_len, Hsz.
      replace (Init.Nat.pred (length (s_elems s))) with (Z.to_nat (Z.of_nat (length (s_elems s)) - 1)) by lia.
      apply (erase_to_end_perm v _ offs _ R). destruct (s_elems s); [congruence|cbn [length]; lia].
    - destruct (all_triv L) eqn:Htr; [exact (triv_balance v _ _ _ _ Htr (erase_triv_life v i Htr))|].
      destruct Hnt as [Hc|Hlt]; [congruence|].
      rewrite (erase_last_as_erase_range L v i Htr), Hlt, remove_range_end by lia.
      apply (erase_to_end_perm v _ offs i R). lia.
    - destruct Hnt as [Htr|Hlt]; [exact (triv_balance v _ _ _ _ Htr (erase_range_triv_life v i j Htr))|].
      subst j. rewrite remove_range_end by lia. apply (erase_to_end_perm v _ offs i R). lia.
    - rewrite clear_as_erase_range, Hsz. exact (erase_to_end_perm v _ offs 0 R ltac:(lia)).
    - destruct (reserve_life L v n b junk nb (S nb)) as [-> ->]. unfold live. rewrite reserve_bid.
      destruct (v_cap v <? n); [|cbn [keep app]; rewrite app_nil_r; apply Permutation_refl].
      destruct (insert_into_evs true v _ offs nb junk R Hcft) as [-> ->]. cbn [bidn].
      rewrite <- (rep_cpos v _ offs R), <- (vobjs_same true). apply Permutation_refl.
  Qed.

  Definition balanced_step (junk : mem) (v : vec) (nb : nat) (s : svec) (o : sop) : Prop :=
    let v' := fst (fst (lstep junk (v, nb) o)) in
    let nb' := snd (fst (lstep junk (v, nb) o)) in
    let evs := snd (lstep junk (v, nb) o) in
    Rep L v' (s_elems (sstep s o)) /\ v_cap v' = s_cap (sstep s o) /\ v_fixed v' = v_fixed v /\
    (exists b0, v_bid v' = Some b0 /\ (b0 < nb')%nat) /\
    Permutation (live v (s_elems s) ++ keep born evs) (keep died evs ++ live v' (s_elems (sstep s o))).

  Theorem lstep_balance junk v nb s o offs :
    RepO L v (s_elems s) offs -> v_cap v = s_cap s -> svalid L (fixed_counts L (v_fixed v)) s o -> lt_ok s o ->
    (exists b0, v_bid v = Some b0 /\ (b0 < nb)%nat) ->
    let v' := fst (fst (lstep junk (v, nb) o)) in
    let nb' := snd (fst (lstep junk (v, nb) o)) in
    let evs := snd (lstep junk (v, nb) o) in
    Rep L v' (s_elems (sstep s o)) /\ v_cap v' = s_cap (sstep s o) /\ v_fixed v' = v_fixed v /\
    (exists b0, v_bid v' = Some b0 /\ (b0 < nb')%nat) /\
    Permutation (live v (s_elems s) ++ keep born evs) (keep died evs ++ live v' (s_elems (sstep s o))).
  Proof.
    intros R Hc Hv Hlt Hb. cbv zeta.
    destruct (lstep_rep junk v nb s o (ex_intro _ offs R) Hc Hv (or_intror (or_intror Hlt)) Hb) as (R' & Hc' & Hf' & Hb').
    repeat (split; [assumption|]). exact (lstep_perm junk v nb s o offs R Hv (or_intror Hlt)).
  Qed.

  Fixpoint lrun (junk : mem) (st : vec * nat) (h : list sop) : (vec * nat) * list ev :=
    match h with
    | [] => (st, [])
    | o :: h' => let r1 := lstep junk st o in let r2 := lrun junk (fst r1) h' in (fst r2, snd r1 ++ snd r2)
    end.
  Fixpoint lt_hist_ok (s : svec) (h : list sop) : Prop :=
    match h with
    | [] => True
    | o :: h' => lt_ok s o /\ lt_hist_ok (sstep s o) h'
    end.

  Definition balanced_run (junk : mem) (v : vec) (nb : nat) (s : svec) (h : list sop) : Prop :=
    let r := lrun junk (v, nb) h in
    Rep L (fst (fst r)) (s_elems (srun s h)) /\ v_bid (fst (fst r)) <> None /\
    Permutation (live v (s_elems s) ++ keep born (snd r)) (keep died (snd r) ++ live (fst (fst r)) (s_elems (srun s h))).

  (* the balance of the steps adds up, whatever restricts the steps ([P]) and says so of a
     history ([H]) *)
  Lemma lrun_balance_gen (P : svec -> sop -> Prop) (H : svec -> list sop -> Prop) junk :
    (forall s o h, H s (o :: h) -> P s o /\ H (sstep s o) h) ->
    (forall v nb s o offs, RepO L v (s_elems s) offs -> v_cap v = s_cap s ->
       svalid L (fixed_counts L (v_fixed v)) s o -> P s o -> (exists b0, v_bid v = Some b0 /\ (b0 < nb)%nat) ->
       balanced_step junk v nb s o) ->
    forall h v nb s, Rep L v (s_elems s) -> v_cap v = s_cap s -> shist_valid L (fixed_counts L (v_fixed v)) s h ->
      H s h -> (exists b0, v_bid v = Some b0 /\ (b0 < nb)%nat) -> balanced_run junk v nb s h.
  Proof.
    intros Hcons Hstep. unfold balanced_run.
    induction h as [|o h IH]; intros v nb s R Hc Hv Hh Hb.
    - cbn [lrun fst snd srun keep app]. split; [exact R|]. split; [destruct Hb as (b0 & Eb0 & _); congruence|].
      rewrite app_nil_r. apply Permutation_refl.
    - cbn [lrun srun shist_valid] in *. destruct Hv as [Hv1 Hv2]. destruct (Hcons s o h Hh) as [Hp Hh'].
      destruct R as [offs R].
      destruct (Hstep v nb s o offs R Hc Hv1 Hp Hb) as (R1 & Hc1 & Hf1 & Hb1 & P1).
      destruct (lstep junk (v, nb) o) as [[v1 nb1] e1]. cbn [fst snd] in *.
      destruct (IH v1 nb1 (sstep s o) R1 Hc1 ltac:(rewrite Hf1; exact Hv2) Hh' Hb1) as (R2 & Hn2 & P2).
      destruct (lrun junk (v1, nb1) h) as [[v2 nb2] e2]. cbn [fst snd] in *.
      split; [exact R2|]. split; [exact Hn2|].
      rewrite !keep_app, app_assoc. eapply Permutation_trans; [apply Permutation_app_tail; exact P1|].
      rewrite <- !app_assoc. apply Permutation_app_head. exact P2.
  Qed.

  Theorem lrun_balance junk h : forall v nb s,
    Rep L v (s_elems s) -> v_cap v = s_cap s -> shist_valid L (fixed_counts L (v_fixed v)) s h ->
    lt_hist_ok s h -> (exists b0, v_bid v = Some b0 /\ (b0 < nb)%nat) ->
    let r := lrun junk (v, nb) h in
    Rep L (fst (fst r)) (s_elems (srun s h)) /\ v_bid (fst (fst r)) <> None /\
    Permutation (live v (s_elems s) ++ keep born (snd r)) (keep died (snd r) ++ live (fst (fst r)) (s_elems (srun s h))).
  Proof. exact (lrun_balance_gen lt_ok lt_hist_ok junk (fun _ _ _ Hh => Hh) (lstep_balance junk) h). Qed.

  Lemma destroy_events v : v_bid v <> None -> destroy L v = snd (clear L v) ++ dealloc_tbl L v ++ dealloc_mem L v.
  Proof.
    intros Hb. unfold destroy, clear. destruct (v_bid v); [|congruence].
    destruct (if all_dtriv L then _ else _) as [v1 e1]. reflexivity.
  Qed.

  Lemma destroy_balance v l : Rep L v l -> v_bid v <> None ->
    Permutation (live v l) (keep died (destroy L v)) /\ keep born (destroy L v) = [].
  Proof.
    intros [offs R] Hbid. rewrite (destroy_events v Hbid), clear_as_erase_range, (rep_vsize L v l offs R).
    destruct (erase_to_end_evs v l offs 0 R ltac:(lia)) as [D B]. cbn [Z.to_nat skipn] in D.
    destruct (keep_dealloc_tbl L v) as [T1 T2]. destruct (keep_dealloc_mem L v) as [M1 M2].
    rewrite !keep_app, D, B, T1, T2, M1, M2, !app_nil_r. split; [|reflexivity].
    unfold live. rewrite <- (rep_cpos v l offs R), (vobjs_same true). apply Permutation_refl.
  Qed.
End LifeHist.

Lemma mkvec_start L cap budget fixed aid junk bid tbid :
  wf_plist L = true -> 0 <= cap -> Forall (fun c => 0 <= c) fixed ->
  let v0 := fst (mkvec L cap budget fixed aid junk bid tbid) in
  Rep L v0 [] /\ v_cap v0 = cap /\ v_fixed v0 = fixed /\ exists b0, v_bid v0 = Some b0 /\ (b0 < S (Nat.max bid tbid))%nat.
Proof.
  intros Hwf Hcap Hfx.
  destruct (mkvec_rep_ok L Hwf cap budget fixed aid junk bid tbid Hcap Hfx) as (R0 & Hc0 & Hf0).
  repeat (split; [assumption|]). exists bid. split; [reflexivity|lia].
Qed.

Lemma run_then_destroy L junk v nb cap h :
  wf_plist L = true -> (forall mv p, In p L -> ntc mv p = ntd p) ->
  balanced_run L junk v nb {| s_cap := cap; s_elems := [] |} h ->
  let evs := snd (lrun L junk (v, nb) h) ++ destroy L (fst (fst (lrun L junk (v, nb) h))) in
  Permutation (keep born evs) (keep died evs).
Proof.
  intros Hwf Hsame (R & Hbid & P). cbv zeta.
  destruct (destroy_balance L Hwf Hsame _ _ R Hbid) as [Pd Bd].
  rewrite !keep_app, Bd, app_nil_r.
  eapply Permutation_trans; [exact P|]. apply Permutation_app_head. exact Pd.
Qed.

(* C06 along a whole life: construction, ANY valid history (erase only up to the end), then
   destruction - every object that was constructed (by emplace_back or by the relocation of a
   growing reserve) is destroyed exactly once: the constructions and the destructions,
   as multisets of (block, offset, size), coincide.  Every well-formed list whose non-trivial
   types have both a non-trivial constructor and destructor and whose span sizes are of a
   trivially move-constructible type. *)
Theorem whole_life_objects_balanced : forall L cap budget fixed aid junk bid tbid h,
  wf_plist L = true -> (forall mv p, In p L -> ntc mv p = ntd p) -> cft L = true ->
  0 <= cap -> Forall (fun c => 0 <= c) fixed ->
  let v0 := fst (mkvec L cap budget fixed aid junk bid tbid) in
  let s0 := {| s_cap := cap; s_elems := [] |} in
  shist_valid L (fixed_counts L fixed) s0 h -> lt_hist_ok s0 h ->
  let r := lrun L junk (v0, S (Nat.max bid tbid)) h in
  let evs := snd r ++ destroy L (fst (fst r)) in
  Permutation (keep born evs) (keep died evs).
Proof.
  intros L cap budget fixed aid junk bid tbid h Hwf Hsame Hcft Hcap Hfx. cbv zeta. intros Hv Hlt.
  destruct (mkvec_start L cap budget fixed aid junk bid tbid Hwf Hcap Hfx) as (R0 & Hc0 & Hf0 & Hb0).
  apply (run_then_destroy L junk _ _ cap h Hwf Hsame).
  apply (lrun_balance L Hwf Hsame Hcft junk h); [exact R0|exact Hc0|rewrite Hf0; exact Hv|exact Hlt|exact Hb0].
Qed.

(* the hypotheses are satisfiable: the list and history of NtRefine.refinement_every_list_applies *)
Example whole_life_applies :
  wf_plist ntL = true /\ (forall mv p, In p ntL -> ntc mv p = ntd p) /\ cft ntL = true /\
  shist_valid ntL (fixed_counts ntL []) {| s_cap := 3; s_elems := [] |} ntH /\
  lt_hist_ok {| s_cap := 3; s_elems := [] |} ntH /\
  length (keep born (snd (lrun ntL (fun _ => 170) (fst (mkvec ntL 3 40 [] 0 (fun _ => 170) 0 1), 2%nat) ntH))) = 11%nat.
Proof.
  split; [reflexivity|]. split.
  { intros mv p [<-|[<-|[]]]; reflexivity. }
  split; [reflexivity|]. split; [|split].
  - cbn. repeat split; try lia; try discriminate; repeat constructor.
  - cbn. repeat split; lia.
  - vm_compute. reflexivity.
Qed.
