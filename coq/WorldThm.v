(* WorldThm.v — what a relocated or re-tagged record represents (swap here, C08 / C09; stealing,
   copies and moves of every list are in NtWorld.v), and the allocation ledger (C07): its
   automaton, the blocks a vector owns, and the fact about lists of blocks (ledger_replace) from
   which construction, reserve and destruction are balanced.  Last: histories that hand out
   block ids (ids_ok, lstep, lrun), over which NtLedger.v states C07. *)
From Coq Require Import ZArith List Bool.
From Cntgs Require Import Layout Mem Vector World Spec Rep Refine StableThm.
Import ListNotations.
Local Open Scope Z_scope.

Section WorldThm.
  Variable L : list param.
  Hypothesis Hwf : wf_plist L = true.

  Lemma relocate_rep src l ncap b u a m' tbid T : Rep L src l -> Z.of_nat (length l) <= ncap ->
    (forall x, 0 <= x < dend L src -> m' x = v_mem src x) ->
    Rep L {| v_cap := ncap; v_bid := b; v_units := u; v_aid := a; v_mem := m';
             v_fixed := v_fixed src; v_count := v_count src; v_stride := v_stride src;
             v_tbl := if has_varying L then tbl_relocate (v_tbl src) ncap tbid else T;
             v_last := v_last src |} l.
  Proof. exact (rep_relocate L Hwf src l ncap b u a m' tbid T). Qed.

  Lemma rep_retag v l b u a : Rep L v l ->
    Rep L {| v_cap := v_cap v; v_bid := b; v_units := u; v_aid := a; v_mem := v_mem v;
             v_fixed := v_fixed v; v_count := v_count v; v_stride := v_stride v;
             v_tbl := v_tbl v; v_last := v_last v |} l.
  Proof. intros [offs R]. exists offs. destruct R. constructor; assumption. Qed.

  Theorem swap_spec K a b la lb : Rep L a la -> Rep L b lb ->
    Rep L (fst (swap_vec K a b)) lb /\ Rep L (snd (swap_vec K a b)) la /\
    v_aid (fst (swap_vec K a b)) = (if pocs K then v_aid b else v_aid a) /\
    v_aid (snd (swap_vec K a b)) = (if pocs K then v_aid a else v_aid b).
  Proof.
    intros Ra Rb. unfold swap_vec. cbn [fst snd v_aid].
    split; [apply rep_retag; auto|]. split; [apply rep_retag; auto|]. auto.
  Qed.
End WorldThm.

(* C08, trivially relocatable lists: between unequal, non-propagating allocators the source's
   block is never taken; a new block, if any, comes from the TARGET's allocator *)
Theorem move_assign_elementwise_triv L (Htriv : all_triv L = true) K d src junk nb :
  always_eq K = false -> pocma K = false -> v_aid d <> v_aid src ->
  let '(d', src', evs, nb') := move_assign K L d src junk nb in
  src' = src /\ v_aid d' = v_aid d /\
  (v_bid d' = v_bid d \/
   (v_bid d' = Some nb /\ In (EAlloc (v_aid d) (SA L) (consumption L src) nb) evs)).
Proof.
  intros Hae Hpm Hne. unfold move_assign. rewrite Hae, Hpm. cbn [orb].
  replace (v_aid d =? v_aid src) with false by (symmetry; apply Z.eqb_neq; exact Hne).
  rewrite (all_triv_dtriv L Htriv).
  destruct (consumption L d <? consumption L src); rewrite (insert_into_triv L Htriv); cbn [fst snd].
  - split; [reflexivity|]. split; [reflexivity|]. right. split; [reflexivity|]. left. reflexivity.
  - split; [reflexivity|]. split; [reflexivity|]. left. reflexivity.
Qed.

Definition blk := (nat * (Z * Z * Z))%type.     (* block id, (allocator, unit size, count) *)

Definition has_blk (b : nat) (live : list blk) : bool := existsb (fun x => Nat.eqb (fst x) b) live.
Definition drop_blk (b : nat) (live : list blk) : list blk := filter (fun x => negb (Nat.eqb (fst x) b)) live.
Fixpoint find_blk (b : nat) (live : list blk) : option (Z * Z * Z) :=
  match live with
  | [] => None
  | x :: r => if Nat.eqb (fst x) b then Some (snd x) else find_blk b r
  end.

(* the ledger automaton: every allocation gets a fresh block; every deallocation names a
   live block with the allocator, unit size and count it was allocated with; everything
   else is ignored.  [None] = violation *)
Fixpoint ledger (live : list blk) (evs : list ev) : option (list blk) :=
  match evs with
  | [] => Some live
  | EAlloc a u n b :: r => if has_blk b live then None else ledger (live ++ [(b, (a, u, n))]) r
  | EDealloc a u n b :: r =>
      match find_blk b live with
      | Some (a', u', n') => if (a =? a') && (u =? u') && (n =? n') then ledger (drop_blk b live) r else None
      | None => None
      end
  | _ :: r => ledger live r
  end.

(* the blocks a vector owns: its data block and (with a VaryingSize parameter) its table *)
Definition blocks_of (L : list param) (v : vec) : list blk :=
  (match v_bid v with Some b => [(b, (v_aid v, SA L, v_units v))] | None => [] end) ++
  (if has_varying L then
     match t_bid (v_tbl v) with Some tb => [(tb, (v_aid v, 8, t_cap (v_tbl v)))] | None => [] end
   else []).

Lemma ledger_bind e1 : forall live e2,
  ledger live (e1 ++ e2) = match ledger live e1 with Some live1 => ledger live1 e2 | None => None end.
Proof.
  induction e1 as [|e e1 IH]; intros live e2; cbn [app ledger]; [reflexivity|].
  destruct e; try apply IH.
  - destruct (has_blk bid live); [reflexivity|apply IH].
  - destruct (find_blk bid live) as [[[a' u'] n']|]; [|reflexivity].
    destruct ((aid =? a') && (unit =? u') && (n =? n')); [apply IH|reflexivity].
Qed.

Lemma ledger_app live e1 e2 live1 : ledger live e1 = Some live1 -> ledger live (e1 ++ e2) = ledger live1 e2.
Proof. intros H. rewrite ledger_bind, H. reflexivity. Qed.

Lemma no_alloc_ledger evs live : no_alloc evs -> ledger live evs = Some live.
Proof.
  unfold no_alloc. induction evs as [|e evs IH]; intros H; [reflexivity|].
  cbn [forallb] in H. apply andb_true_iff in H. destruct H as [H1 H2].
  destruct e; try discriminate H1; cbn [ledger]; apply IH; exact H2.
Qed.

Definition ealloc (x : blk) : ev := let '(b, (a, u, n)) := x in EAlloc a u n b.
Definition edealloc (x : blk) : ev := let '(b, (a, u, n)) := x in EDealloc a u n b.

Lemma has_blk_notin b live : ~ In b (map fst live) -> has_blk b live = false.
Proof.
  intros H. unfold has_blk. destruct (existsb _ live) eqn:E; [|reflexivity].
  apply existsb_exists in E. destruct E as (x & Hx & E). apply Nat.eqb_eq in E. subst b.
  exfalso. apply H. apply in_map. exact Hx.
Qed.

Lemma drop_blk_notin b live : ~ In b (map fst live) -> drop_blk b live = live.
Proof.
  induction live as [|x live IH]; intros H; [reflexivity|]. cbn [drop_blk filter].
  destruct (Nat.eqb_spec (fst x) b) as [E|_]; [exfalso; apply H; left; exact E|].
  cbn [negb]. f_equal. apply IH. intros Hin. apply H. right. exact Hin.
Qed.

Lemma ledger_allocs new : forall live r, NoDup (map fst (live ++ new)) ->
  ledger live (map ealloc new ++ r) = ledger (live ++ new) r.
Proof.
  induction new as [|[b [[a u] n]] new IH]; intros live r H; [rewrite app_nil_r; reflexivity|].
  cbn [map app ealloc ledger]. rewrite has_blk_notin.
  - rewrite IH; rewrite <- app_assoc; [reflexivity|exact H].
  - rewrite map_app in H. apply NoDup_remove_2 in H. intros Hin. apply H. apply in_or_app. left. exact Hin.
Qed.

Lemma ledger_dealloc l1 l2 b a u n r : ~ In b (map fst (l1 ++ l2)) ->
  ledger (l1 ++ (b, (a, u, n)) :: l2) (EDealloc a u n b :: r) = ledger (l1 ++ l2) r.
Proof.
  rewrite map_app. intros H. cbn [ledger].
  assert (H1 : ~ In b (map fst l1)) by (intros Hin; apply H, in_or_app; left; exact Hin).
  assert (H2 : ~ In b (map fst l2)) by (intros Hin; apply H, in_or_app; right; exact Hin).
  replace (find_blk b (l1 ++ (b, (a, u, n)) :: l2)) with (Some (a, u, n)).
  - rewrite !Z.eqb_refl. cbn [andb]. f_equal. unfold drop_blk. rewrite filter_app. cbn [filter fst].
    rewrite Nat.eqb_refl. cbn [negb]. fold (drop_blk b l1) (drop_blk b l2). rewrite !drop_blk_notin; auto.
  - clear -H1. induction l1 as [|x l1 IH]; cbn [app find_blk fst snd]; [rewrite Nat.eqb_refl; reflexivity|].
    destruct (Nat.eqb_spec (fst x) b) as [E|_]; [exfalso; apply H1; left; exact E|].
    apply IH. intros Hin. apply H1. right. exact Hin.
Qed.

Lemma ledger_deallocs old : forall l2 r, NoDup (map fst (old ++ l2)) ->
  ledger (old ++ l2) (map edealloc (rev old) ++ r) = ledger l2 r.
Proof.
  induction old as [|[b [[a u] n]] old IH] using rev_ind; intros l2 r H; [reflexivity|].
  rewrite rev_unit. rewrite <- app_assoc, map_app in H. cbn [map app fst] in H.
  rewrite <- app_assoc. cbn [map app edealloc].
  rewrite ledger_dealloc by (rewrite map_app; exact (NoDup_remove_2 _ _ _ H)).
  apply IH. rewrite map_app. exact (NoDup_remove_1 _ _ _ H).
Qed.

(* [new] is obtained, then [old] is returned last block first: construction (nothing old),
   a growing reserve, destruction (nothing new) *)
Lemma ledger_replace old new : NoDup (map fst (old ++ new)) ->
  ledger old (map ealloc new ++ map edealloc (rev old)) = Some new.
Proof.
  intros H. rewrite ledger_allocs by exact H.
  rewrite <- (app_nil_r (map edealloc (rev old))). exact (ledger_deallocs old new [] H).
Qed.

Lemma deallocs_blocks L v : (has_varying L = false -> t_bid (v_tbl v) = None) ->
  dealloc_tbl L v ++ dealloc_mem L v = map edealloc (rev (blocks_of L v)).
Proof.
  intros Htb. unfold dealloc_tbl, dealloc_mem, blocks_of.
  destruct (has_varying L); [|rewrite (Htb eq_refl)];
    destruct (v_bid v); try destruct (t_bid (v_tbl v)); reflexivity.
Qed.

Lemma blocks_of_nodup L v : (forall b tb, v_bid v = Some b -> t_bid (v_tbl v) = Some tb -> b <> tb) ->
  NoDup (map fst (blocks_of L v)).
Proof.
  intros Hne. unfold blocks_of.
  destruct (v_bid v) as [b|]; destruct (has_varying L); try destruct (t_bid (v_tbl v)) as [tb|];
    cbn [app map fst]; repeat constructor; cbn [In]; try tauto.
  intros [E|[]]. exact (Hne b tb eq_refl eq_refl (eq_sym E)).
Qed.

Theorem mkvec_ledger L cap budget fixed aid junk bid tbid : bid <> tbid ->
  ledger [] (snd (mkvec L cap budget fixed aid junk bid tbid)) =
    Some (blocks_of L (fst (mkvec L cap budget fixed aid junk bid tbid))).
Proof.
  intros Hne.
  assert (E : snd (mkvec L cap budget fixed aid junk bid tbid) =
              map ealloc (blocks_of L (fst (mkvec L cap budget fixed aid junk bid tbid))) ++ map edealloc (rev [])).
  { unfold mkvec, blocks_of. cbn [fst snd v_bid v_tbl]. destruct (has_varying L); reflexivity. }
  rewrite E. apply ledger_replace. apply blocks_of_nodup. unfold mkvec. cbn [fst v_bid v_tbl].
  intros b tb [= <-]. destruct (has_varying L); cbn [t_bid tbl0]; [intros [= <-]; exact Hne|discriminate].
Qed.

Theorem destroy_ledger L v :
  (forall b tb, v_bid v = Some b -> t_bid (v_tbl v) = Some tb -> b <> tb) ->
  (has_varying L = false -> t_bid (v_tbl v) = None) ->
  ledger (blocks_of L v) (destroy L v) = Some [].
Proof.
  intros Hne Htb. unfold destroy.
  assert (Hna : no_alloc (snd (match v_bid v with
                               | Some _ => if all_dtriv L then (v, []) else destruct_range L v 0 (Z.to_nat (vsize L v))
                               | None => (v, []) end))).
  { destruct (v_bid v); [apply destruct_opt_quiet|reflexivity]. }
  destruct (match v_bid v with Some _ => _ | None => _ end) as [v1 e1]. cbn [snd] in Hna.
  rewrite (ledger_app _ e1 _ _ (no_alloc_ledger e1 _ Hna)), (deallocs_blocks L v Htb).
  apply (ledger_replace (blocks_of L v) []). rewrite app_nil_r. apply blocks_of_nodup. exact Hne.
Qed.

(* block ids are handed out in order: what the vector owns lies below the next free id [nb]
   (w_nb of World.step).  The last clause: blocks_of counts the table's block only with a
   VaryingSize parameter, dealloc_tbl returns whatever block the table names; so without such a
   parameter the table names none *)
Definition ids_ok (L : list param) (v : vec) (nb : nat) : Prop :=
  (forall b, v_bid v = Some b -> (b < nb)%nat) /\
  (forall tb, t_bid (v_tbl v) = Some tb -> (tb < nb)%nat) /\
  (forall b tb, v_bid v = Some b -> t_bid (v_tbl v) = Some tb -> b <> tb) /\
  (has_varying L = false -> t_bid (v_tbl v) = None).

(* one operation with events and the next free block id.  LifeHist.lstep / lrun (C06) are the same
   functions written with projections; C07 is stated over these *)
Definition lstep (L : list param) (junk : mem) (vn : vec * nat) (o : sop) : (vec * nat) * list ev :=
  let '(v, nb) := vn in
  match o with
  | SEmplace t => let '(v', e) := emplace_back L v t in ((v', nb), e)
  | SPopBack => let '(v', e) := pop_back L v in ((v', nb), e)
  | SErase i => let '(v', e) := erase L v i in ((v', nb), e)
  | SEraseRange i j => let '(v', e) := erase_range L v i j in ((v', nb), e)
  | SClear => let '(v', e) := clear L v in ((v', nb), e)
  | SReserve n b => let '(v', e) := reserve L v n b junk nb (S nb) in ((v', S (S nb)), e)
  end.

Fixpoint lrun (L : list param) (junk : mem) (vn : vec * nat) (h : list sop) : (vec * nat) * list ev :=
  match h with
  | [] => (vn, [])
  | o :: h' => let '(vn1, e1) := lstep L junk vn o in
               let '(vn2, e2) := lrun L junk vn1 h' in (vn2, e1 ++ e2)
  end.

Lemma ids_ok_mono L v nb nb' : ids_ok L v nb -> (nb <= nb')%nat -> ids_ok L v nb'.
Proof.
  intros (H1 & H2 & H3) Hle. split; [|split; [|exact H3]].
  - intros b Hb. exact (Nat.lt_le_trans _ _ _ (H1 b Hb) Hle).
  - intros b Hb. exact (Nat.lt_le_trans _ _ _ (H2 b Hb) Hle).
Qed.

Lemma blocks_of_lt L v nb : ids_ok L v nb -> forall b, In b (map fst (blocks_of L v)) -> (b < nb)%nat.
Proof.
  intros (Hb & Htb & _) b. unfold blocks_of. rewrite map_app, in_app_iff. intros [H|H].
  - destruct (v_bid v) as [b0|]; [|contradiction]. destruct H as [<-|[]]. apply Hb. reflexivity.
  - destruct (has_varying L); [|contradiction]. destruct (t_bid (v_tbl v)) as [tb|]; [|contradiction].
    destruct H as [<-|[]]. apply Htb. reflexivity.
Qed.

Lemma mkvec_ids_ok L cap budget fixed aid junk bid tbid nb : bid <> tbid -> (bid < nb)%nat -> (tbid < nb)%nat ->
  ids_ok L (fst (mkvec L cap budget fixed aid junk bid tbid)) nb.
Proof.
  intros Hne Hb Htb. unfold mkvec, ids_ok. cbn [fst v_bid v_tbl].
  destruct (has_varying L); cbn [t_bid tbl0]; repeat split; try discriminate.
  - intros b [= <-]. exact Hb.
  - intros tb [= <-]. exact Htb.
  - intros b tb [= <-] [= <-]. exact Hne.
  - intros b [= <-]. exact Hb.
Qed.
