(* C11 — references and iterators are faithful proxies for the stored elements.
   For EVERY well-formed parameter list and EVERY shape of the run table: assignment (copy and
   move form) and swap through element references of equal field sizes transfer exactly the
   tuples and touch nothing outside the two elements' extents, between two vectors and within
   one; the run tables that drive them cover every field and handle byte-wise only runs of
   trivially assignable / swappable fields; self-assignment and self-swap change no byte.  At the
   level of the represented list these operations replace / exchange elements at unchanged
   offsets, and the exchange sequences of std::reverse / rotate / swap_ranges within one vector
   (World.swaps) permute the list as the algorithms specify.  Iterator expressions are index
   arithmetic.
   PARTIAL: that libstdc++'s algorithms perform exactly these iter_swap sequences (rotate is
   modelled by the three reversals that give the same result) is not proved, and swap_ranges
   between two vectors is modelled as written; both are decided by the correspondence check and
   its content oracle (DESIGN.md, C11). *)
From Coq Require Import ZArith List Bool Lia.
From Cntgs Require Import Layout Mem Vector Proxy World Spec Rep RunsThm ElemThm AssignThm SwapThm MoveThm
     SameVec RefUpdate Refine NtRefine World.
Import ListNotations.
Local Open Scope Z_scope.

Theorem C11_reference_assignment_copies_the_values : forall L, wf_plist L = true ->
  forall ts td fcs fcd, tuple_ok L fcs 0 ts -> tuple_ok L fcd 0 td -> cnts_of td = cnts_of ts ->
  forall ms md sa da, 0 <= sa /\ (SA L | sa) -> 0 <= da /\ (SA L | da) -> elem_at L ms sa ts ->
  forall sb db,
  let x' := fst (assign_all false L sb db (ref_fl L ts sa) (ref_fl L td da)
                            {| m_s := ms; m_d := md; m_same := false |} (seq 0 (length L))) in
  m_s x' = ms /\
  elem_at L (m_d x') da ts /\
  (forall y, ~ (da <= y < da + (elem_end L sa ts - sa)) -> m_d x' y = md y).
Proof. exact ref_assign_copy. Qed.
Print Assumptions C11_reference_assignment_copies_the_values.

Theorem C11_assign_table_covers_every_field : forall mv L j, (j < length L)%nat ->
  covered (runs_asg mv L) j.
Proof. intros mv L. exact (proj1 (proj2 (runs_structure (tasg mv) false false L))). Qed.
Print Assumptions C11_assign_table_covers_every_field.

Theorem C11_assign_runs_hold_only_trivially_assignable_fields : forall mv L,
  sound (tasg mv) L (runs_asg mv L) (length L).
Proof. intros mv L. exact (proj2 (proj2 (runs_structure (tasg mv) false false L))). Qed.
Print Assumptions C11_assign_runs_hold_only_trivially_assignable_fields.

Theorem C11_swap_table_covers_every_field : forall L j, (j < length L)%nat ->
  covered (runs_swp L) j.
Proof. intros L. exact (proj1 (proj2 (runs_structure tswp false false L))). Qed.
Print Assumptions C11_swap_table_covers_every_field.

Theorem C11_swap_runs_hold_only_trivially_swappable_fields : forall L,
  sound tswp L (runs_swp L) (length L).
Proof. intros L. exact (proj2 (proj2 (runs_structure tswp false false L))). Qed.
Print Assumptions C11_swap_runs_hold_only_trivially_swappable_fields.

Theorem C11_iterators_are_indices : forall i j n,
  iter_battery i j n =
  [ i - j; b2z (i =? j); b2z (negb (i =? j)); b2z (i <? j); b2z (i <=? j); b2z (j <? i); b2z (j <=? i);
    j; i; i + 1; i; i; n; 0 ].
Proof. intros i j n. unfold iter_battery. repeat f_equal; lia. Qed.
Print Assumptions C11_iterators_are_indices.

(* non-vacuity: the partially trivial swap of the suite (int, FixedSize<float>,
   FixedSize<unique_ptr>) has one run over the two trivial fields and one MANUAL field (the float
   field stands here as TBlob; TFlt is trivially assignable and swappable as well) *)
Example C11_partially_trivial_tables :
  let L := [ {| pk := Plain; psz := 4; pal := 1; pty := TUInt |};
             {| pk := Fixed; psz := 4; pal := 1; pty := TBlob |};
             {| pk := Fixed; psz := 8; pal := 1; pty := TTrk |} ] in
  runs_swp L = [REnd 1; RSkip; RManual] /\ runs_asg false L = [REnd 1; RSkip; RManual] /\
  runs_asg true L = [REnd 1; RSkip; RManual].
Proof. vm_compute. repeat split; reflexivity. Qed.

(* the copy and the move table differ where a type is trivial for one assignment only: a
   handle with a user-provided move assignment (TTrkMA) is memmoved by a copy assignment and
   assigned object by object by a move assignment; the reverse for TTrkCA *)
Example C11_copy_and_move_tables_differ :
  let L := [ {| pk := Plain; psz := 4; pal := 1; pty := TUInt |};
             {| pk := Plain; psz := 4; pal := 1; pty := TTrkMA |};
             {| pk := Fixed; psz := 4; pal := 1; pty := TTrkCA |} ] in
  runs_asg false L = [REnd 1; RSkip; RManual] /\ runs_asg true L = [REnd 0; RManual; REnd 2] /\
  runs_swp L = [REnd 0; RManual; REnd 2].
Proof. vm_compute. repeat split; reflexivity. Qed.

Theorem C11_reference_swap_exchanges_the_values : forall L, wf_plist L = true ->
  forall tx ty fcx fcy, tuple_ok L fcx 0 tx -> tuple_ok L fcy 0 ty -> cnts_of ty = cnts_of tx ->
  forall mx my xa ya, 0 <= xa /\ (SA L | xa) -> 0 <= ya /\ (SA L | ya) ->
  elem_at L mx xa tx -> elem_at L my ya ty ->
  forall xb yb,
  let x' := fst (swap_all L xb yb (ref_fl L tx xa) (ref_fl L ty ya)
                          {| m_s := mx; m_d := my; m_same := false |} (seq 0 (length L))) in
  elem_at L (m_s x') xa ty /\ elem_at L (m_d x') ya tx /\
  (forall y, ~ (xa <= y < xa + (elem_end L xa tx - xa)) -> m_s x' y = mx y) /\
  (forall y, ~ (ya <= y < ya + (elem_end L xa tx - xa)) -> m_d x' y = my y).
Proof. exact ref_swap_exchanges. Qed.
Print Assumptions C11_reference_swap_exchanges_the_values.

(* the runs of the tables are pairwise disjoint: behind the first field of a run the table
   holds nothing up to the run's end - no second run, no MANUAL entry *)
Theorem C11_runs_do_not_overlap : forall pred bpad bspan L,
  separated (runs pred bpad bspan L) (length L).
Proof. exact runs_separated. Qed.
Print Assumptions C11_runs_do_not_overlap.

(* move form: the target gets the source's tuple; the source is scribbled (moved-from objects,
   0xEE in the model) exactly on the byte ranges of the fields that are not trivially
   move-assignable (MANUAL in the move table) and keeps every other byte *)
Theorem C11_reference_move_assignment_moves_the_values : forall L, wf_plist L = true ->
  forall tx ty fcx fcy, tuple_ok L fcx 0 tx -> tuple_ok L fcy 0 ty -> cnts_of ty = cnts_of tx ->
  forall mx my xa ya, 0 <= xa /\ (SA L | xa) -> 0 <= ya /\ (SA L | ya) -> elem_at L mx xa tx ->
  forall sb db,
  let x' := fst (assign_all true L sb db (ref_fl L tx xa) (ref_fl L ty ya)
                            {| m_s := mx; m_d := my; m_same := false |} (seq 0 (length L))) in
  elem_at L (m_d x') ya tx /\
  (forall y, ~ (ya <= y < ya + (elem_end L xa tx - xa)) -> m_d x' y = my y) /\
  (forall y, m_s x' y = if existsb (fun k => man L k && MoveThm.rx L tx xa k y) (seq 0 (length L)) then 238 else mx y).
Proof. exact ref_move_assign. Qed.
Print Assumptions C11_reference_move_assignment_moves_the_values.

(* both references into ONE vector (m_same = true: each sees the other's writes): the run is the
   two-memory run glued along the target element's extent (simr), with the same events *)
Theorem C11_same_vector_runs_are_the_glued_two_vector_runs : forall L, wf_plist L = true ->
  forall ts td fcs fcd, tuple_ok L fcs 0 ts -> tuple_ok L fcd 0 td -> cnts_of td = cnts_of ts ->
  forall m sa da, 0 <= sa /\ (SA L | sa) -> 0 <= da /\ (SA L | da) ->
  let len := elem_end L sa ts - sa in
  sa + len <= da \/ da + len <= sa ->
  forall mv sb db,
  let one := {| m_s := m; m_d := m; m_same := true |} in
  let two := {| m_s := m; m_d := m; m_same := false |} in
  (let x := assign_all mv L sb db (ref_fl L ts sa) (ref_fl L td da) one (seq 0 (length L)) in
   let y := assign_all mv L sb db (ref_fl L ts sa) (ref_fl L td da) two (seq 0 (length L)) in
   simr (inr da len) (fst x) (fst y) /\ snd x = snd y) /\
  (let x := swap_all L sb db (ref_fl L ts sa) (ref_fl L td da) one (seq 0 (length L)) in
   let y := swap_all L sb db (ref_fl L ts sa) (ref_fl L td da) two (seq 0 (length L)) in
   simr (inr da len) (fst x) (fst y) /\ snd x = snd y).
Proof.
  intros L Hwf ts td fcs fcd Hts Htd Hcn m sa da Hsa Hda len Hd mv sb db. split.
  - exact (assign_same_is_glued L Hwf ts td fcs Hts Hcn m sa da Hsa Hda Hd mv sb db).
  - exact (swap_same_is_glued L Hwf ts td fcs Hts Hcn m sa da Hsa Hda Hd sb db).
Qed.
Print Assumptions C11_same_vector_runs_are_the_glued_two_vector_runs.

Theorem C11_same_vector_assignment : forall L, wf_plist L = true ->
  forall ts td fcs fcd, tuple_ok L fcs 0 ts -> tuple_ok L fcd 0 td -> cnts_of td = cnts_of ts ->
  forall m sa da, 0 <= sa /\ (SA L | sa) -> 0 <= da /\ (SA L | da) -> elem_at L m sa ts ->
  let len := elem_end L sa ts - sa in
  sa + len <= da \/ da + len <= sa ->
  forall sb db,
  let x' := fst (assign_all false L sb db (ref_fl L ts sa) (ref_fl L td da)
                            {| m_s := m; m_d := m; m_same := true |} (seq 0 (length L))) in
  (forall a, m_s x' a = m_d x' a) /\
  elem_at L (m_d x') da ts /\
  (forall y, ~ (da <= y < da + len) -> m_d x' y = m y).
Proof. exact same_vector_copy_assign. Qed.
Print Assumptions C11_same_vector_assignment.

Theorem C11_same_vector_move_assignment : forall L, wf_plist L = true ->
  forall ts td fcs fcd, tuple_ok L fcs 0 ts -> tuple_ok L fcd 0 td -> cnts_of td = cnts_of ts ->
  forall m sa da, 0 <= sa /\ (SA L | sa) -> 0 <= da /\ (SA L | da) -> elem_at L m sa ts ->
  let len := elem_end L sa ts - sa in
  sa + len <= da \/ da + len <= sa ->
  forall sb db,
  let x' := fst (assign_all true L sb db (ref_fl L ts sa) (ref_fl L td da)
                            {| m_s := m; m_d := m; m_same := true |} (seq 0 (length L))) in
  (forall a, m_s x' a = m_d x' a) /\
  elem_at L (m_d x') da ts /\
  (forall y, ~ (da <= y < da + len) ->
     m_d x' y = if existsb (fun k => man L k && MoveThm.rx L ts sa k y) (seq 0 (length L)) then 238 else m y).
Proof. exact same_vector_move_assign. Qed.
Print Assumptions C11_same_vector_move_assignment.

Theorem C11_same_vector_swap : forall L, wf_plist L = true ->
  forall ts td fcs fcd, tuple_ok L fcs 0 ts -> tuple_ok L fcd 0 td -> cnts_of td = cnts_of ts ->
  forall m sa da, 0 <= sa /\ (SA L | sa) -> 0 <= da /\ (SA L | da) -> elem_at L m sa ts ->
  let len := elem_end L sa ts - sa in
  sa + len <= da \/ da + len <= sa ->
  elem_at L m da td ->
  forall xb yb,
  let x' := fst (swap_all L xb yb (ref_fl L ts sa) (ref_fl L td da)
                          {| m_s := m; m_d := m; m_same := true |} (seq 0 (length L))) in
  (forall a, m_s x' a = m_d x' a) /\
  elem_at L (m_d x') sa td /\ elem_at L (m_d x') da ts /\
  (forall y, ~ (sa <= y < sa + len) -> ~ (da <= y < da + len) -> m_d x' y = m y).
Proof. exact same_vector_swap. Qed.
Print Assumptions C11_same_vector_swap.

(* non-vacuity: two elements of (uint16, FixedSize<Trk,2>, uint8) in one memory (junk 0xAA),
   16 bytes apart: after swap(v[0], v[1]) executed in ONE memory each holds the other's tuple *)
Example C11_same_vector_example :
  let L := [ {| pk := Plain; psz := 2; pal := 2; pty := TUInt |};
             {| pk := Fixed; psz := 2; pal := 1; pty := TTrk |};
             {| pk := Plain; psz := 1; pal := 1; pty := TU8 |} ] in
  let t0 : tuple := [[[1; 0]]; [[2; 2]; [3; 3]]; [[4]]] in
  let t1 : tuple := [[[5; 0]]; [[6; 6]; [7; 7]]; [[8]]] in
  let m0 := fst (fst (store L t1 0%nat (fst (fst (store L t0 0%nat (mfill 170) 0))) 16)) in
  elem_at L m0 0 t0 /\ elem_at L m0 16 t1 /\ elem_end L 0 t0 - 0 = 7 /\
  let x' := fst (swap_all L 0%nat 0%nat (ref_fl L t0 0) (ref_fl L t1 16)
                          {| m_s := m0; m_d := m0; m_same := true |} (seq 0 (length L))) in
  elem_at L (m_d x') 0 t1 /\ elem_at L (m_d x') 16 t0 /\ m_d x' 7 = 170 /\ m_d x' 23 = 170.
Proof. vm_compute. repeat split; reflexivity. Qed.

(* at the level of the represented list; ref_assign / ref_swap return ((first operand's vector,
   second operand's vector), events), within one vector two views of the same memory *)
Theorem C11_assignment_through_references_updates_the_list : forall L, wf_plist L = true ->
  forall v l offs, RepO L v l offs ->
  forall i j, (i < length l)%nat -> (j < length l)%nat -> i <> j ->
  cnts_of (nth i l []) = cnts_of (nth j l []) ->
  let r := ref_assign false L true v (Z.of_nat i) v (Z.of_nat j) in
  RepO L (fst (fst r)) (upd i (nth j l []) l) offs /\
  (forall a, v_mem (snd (fst r)) a = v_mem (fst (fst r)) a).
Proof. exact ref_assign_refines_update. Qed.
Print Assumptions C11_assignment_through_references_updates_the_list.

Theorem C11_swap_through_references_exchanges : forall L, wf_plist L = true ->
  forall v l offs, RepO L v l offs ->
  forall i j, (i < length l)%nat -> (j < length l)%nat -> i <> j ->
  cnts_of (nth i l []) = cnts_of (nth j l []) ->
  let r := ref_swap L true v (Z.of_nat i) v (Z.of_nat j) in
  RepO L (fst (fst r)) (upd i (nth j l []) (upd j (nth i l []) l)) offs /\
  (forall a, v_mem (snd (fst r)) a = v_mem (fst (fst r)) a).
Proof. exact ref_swap_refines_exchange. Qed.
Print Assumptions C11_swap_through_references_exchanges.

Theorem C11_self_assignment_changes_nothing : forall L sb db fl m ks,
  (forall mv, let x' := fst (assign_all mv L sb db fl fl {| m_s := m; m_d := m; m_same := true |} ks) in
              (forall z, m_s x' z = m z) /\ (forall z, m_d x' z = m z)) /\
  (let x' := fst (swap_all L sb db fl fl {| m_s := m; m_d := m; m_same := true |} ks) in
   (forall z, m_s x' z = m z) /\ (forall z, m_d x' z = m z)).
Proof.
  intros L sb db fl m ks. split.
  - intros mv. exact (self_assignment_changes_nothing mv L sb db fl m ks).
  - exact (self_swap_changes_nothing L sb db fl m ks).
Qed.
Print Assumptions C11_self_assignment_changes_nothing.

Theorem C11_self_assignment_keeps_the_list : forall L, wf_plist L = true -> forall v l offs i, RepO L v l offs ->
  (forall mv, let r := ref_assign mv L true v i v i in RepO L (fst (fst r)) l offs /\ RepO L (snd (fst r)) l offs) /\
  (let r := ref_swap L true v i v i in RepO L (fst (fst r)) l offs /\ RepO L (snd (fst r)) l offs).
Proof.
  intros L Hwf v l offs i R. split.
  - intros mv. exact (self_assign_refines_identity L Hwf v l offs i mv R).
  - exact (self_swap_refines_identity L Hwf v l offs i R).
Qed.
Print Assumptions C11_self_assignment_keeps_the_list.

(* lists without a VaryingSize parameter: all elements of a vector have the same field sizes, so
   after EVERY valid history from construction any two different elements can be assigned to /
   swapped with each other through references, and the vector then represents the updated /
   exchanged list *)
Theorem C11_reference_assignment_and_swap_after_every_history : forall L cap budget fixed aid junk bid tbid h,
  wf_plist L = true -> has_varying L = false -> 0 <= cap -> Forall (fun c => 0 <= c) fixed ->
  let v0 := fst (mkvec L cap budget fixed aid junk bid tbid) in
  let s0 := {| s_cap := cap; s_elems := [] |} in
  shist_valid L (fixed_counts L fixed) s0 h -> nt_hist_okx L s0 h ->
  let v := vrun L junk v0 h in
  let l := s_elems (srun s0 h) in
  forall i j, (i < length l)%nat -> (j < length l)%nat -> i <> j ->
  Rep L (fst (fst (ref_assign false L true v (Z.of_nat i) v (Z.of_nat j)))) (upd i (nth j l []) l) /\
  Rep L (fst (fst (ref_swap L true v (Z.of_nat i) v (Z.of_nat j)))) (upd i (nth j l []) (upd j (nth i l []) l)).
Proof.
  intros L cap budget fixed aid junk bid tbid h Hwf Hv Hcap Hfx. cbv zeta. intros Hh Hn i j Hi Hj Hij.
  destruct (rep_every_history_nt L cap budget fixed aid junk bid tbid h Hwf Hcap Hfx Hh Hn) as [offs R].
  split; exists offs.
  - exact (ref_assign_refines_update_fixed L Hwf Hv _ _ offs i j R Hi Hj Hij).
  - exact (ref_swap_refines_exchange_fixed L Hwf Hv _ _ offs i j R Hi Hj Hij).
Qed.
Print Assumptions C11_reference_assignment_and_swap_after_every_history.

(* a sequence of exchanges of distinct positions within one vector represents the list with the same
   exchanges applied *)
Theorem C11_exchange_sequences_refine : forall L, wf_plist L = true -> has_varying L = false ->
  forall (ps : list (nat * nat)) n v l offs, RepO L v l offs -> length l = n ->
  Forall (fun ij => (fst ij < n)%nat /\ (snd ij < n)%nat /\ fst ij <> snd ij) ps ->
  let zs := map (fun ij => (Z.of_nat (fst ij), Z.of_nat (snd ij))) ps in
  RepO L (fst (swaps L true v v zs)) (fold_left lswap ps l) offs.
Proof. exact swaps_refine_exchanges. Qed.
Print Assumptions C11_exchange_sequences_refine.

(* std::reverse(begin() + a, begin() + c): the vector afterwards represents a list that holds, at
   every position k of [a, c), what position a + c - 1 - k held, and is unchanged elsewhere *)
Theorem C11_reverse_reverses : forall L, wf_plist L = true -> has_varying L = false ->
  forall v l offs a c, RepO L v l offs -> (a <= c)%nat -> (c <= length l)%nat ->
  exists l', RepO L (fst (swaps L true v v (rev_pairs (Z.of_nat a) (Z.of_nat c)))) l' offs /\
    forall k, nth k l' [] = if ((a <=? k) && (k <? c))%nat then nth (a + c - 1 - k) l [] else nth k l [].
Proof.
  intros L Hwf Hv v l offs a c R Hac Hcl. exists (fold_left lswap (rev_pairs_nat a c) l). split.
  - exact (reverse_refines L Hwf Hv v l offs a c R Hac Hcl).
  - exact (reverse_elementwise l a c Hac Hcl).
Qed.
Print Assumptions C11_reverse_reverses.

(* std::rotate(begin() + a, begin() + b, begin() + c) (the three reversals): the vector afterwards
   represents the list rotated left by b - a inside [a, c) *)
Theorem C11_rotate_rotates : forall L, wf_plist L = true -> has_varying L = false ->
  forall v l offs a b c, RepO L v l offs -> (a <= b)%nat -> (b <= c)%nat -> (c <= length l)%nat ->
  exists l', RepO L (fst (swaps L true v v (rev_pairs (Z.of_nat a) (Z.of_nat b) ++ rev_pairs (Z.of_nat b) (Z.of_nat c) ++
                                            rev_pairs (Z.of_nat a) (Z.of_nat c)))) l' offs /\
    forall k, nth k l' [] =
      if ((a <=? k) && (k <? c))%nat
      then (if (k <? a + (c - b))%nat then nth (k + (b - a)) l [] else nth (k - (c - b)) l [])
      else nth k l [].
Proof.
  intros L Hwf Hv v l offs a b c R Hab Hbc Hcl.
  exists (fold_left lswap (rev_pairs_nat a b ++ rev_pairs_nat b c ++ rev_pairs_nat a c) l). split.
  - exact (rotate_refines L Hwf Hv v l offs a b c R Hab Hbc Hcl).
  - exact (rotate_elementwise l a b c Hab Hbc Hcl).
Qed.
Print Assumptions C11_rotate_rotates.

(* std::swap_ranges(begin() + a, begin() + b, begin() + c) inside one vector, ranges not overlapping:
   the two segments change places, everything else stays *)
Theorem C11_swap_ranges_swaps : forall L, wf_plist L = true -> has_varying L = false ->
  forall v l offs a b c, RepO L v l offs -> (a <= b)%nat -> (b <= length l)%nat ->
  (c + (b - a) <= length l)%nat -> (b <= c \/ c + (b - a) <= a)%nat ->
  exists l', RepO L (fst (swaps L true v v (range_pairs (Z.of_nat a) (Z.of_nat b) (Z.of_nat c)))) l' offs /\
    forall k, nth k l' [] =
      if ((a <=? k) && (k <? b))%nat then nth (k - a + c) l []
      else if ((c <=? k) && (k <? c + (b - a)))%nat then nth (k - c + a) l [] else nth k l [].
Proof.
  intros L Hwf Hv v l offs a b c R Hab Hbl Hcl Hd. exists (fold_left lswap (range_pairs_nat a b c) l). split.
  - exact (swap_ranges_refines L Hwf Hv v l offs a b c R Hab Hbl Hcl Hd).
  - exact (swap_ranges_elementwise l a b c Hab Hbl Hcl Hd).
Qed.
Print Assumptions C11_swap_ranges_swaps.

(* the hypotheses of the history-level theorems are satisfiable: (uint16, FixedSize<Trk<2>>, uint8),
   fixed size 2, three elements left after a history with pop_back, erase and reserve *)
Definition c11L : list param :=
  [ {| pk := Plain; psz := 2; pal := 2; pty := TUInt |};
    {| pk := Fixed; psz := 2; pal := 1; pty := TTrk |};
    {| pk := Plain; psz := 1; pal := 1; pty := TU8 |} ].
Definition c11t (b : Z) : tuple := [[[b; 0]]; [[b; b]; [b + 1; b + 1]]; [[b]]].
Definition c11H : list sop :=
  [SEmplace (c11t 1); SEmplace (c11t 2); SPopBack; SEmplace (c11t 3); SReserve 5 0; SEmplace (c11t 4); SEmplace (c11t 5); SErase 3].
Example C11_history_level_applies :
  wf_plist c11L = true /\ has_varying c11L = false /\
  shist_valid c11L (fixed_counts c11L [2]) {| s_cap := 3; s_elems := [] |} c11H /\
  nt_hist_okx c11L {| s_cap := 3; s_elems := [] |} c11H /\
  s_elems (srun {| s_cap := 3; s_elems := [] |} c11H) = [c11t 1; c11t 3; c11t 4].
Proof.
  split; [reflexivity|]. split; [reflexivity|]. split; [|split].
  - cbn. repeat split; try lia; try discriminate; repeat constructor.
  - apply nt_hist_okx_fixed. reflexivity.
  - reflexivity.
Qed.

Theorem C11_assignment_between_vectors_updates_the_list : forall L, wf_plist L = true ->
  forall vd vs ld ls od os, RepO L vd ld od -> RepO L vs ls os ->
  forall i j, (i < length ld)%nat -> (j < length ls)%nat ->
  cnts_of (nth i ld []) = cnts_of (nth j ls []) ->
  let r := ref_assign false L false vd (Z.of_nat i) vs (Z.of_nat j) in
  RepO L (fst (fst r)) (upd i (nth j ls []) ld) od /\ RepO L (snd (fst r)) ls os.
Proof. exact ref_assign_refines_update_two. Qed.
Print Assumptions C11_assignment_between_vectors_updates_the_list.

Theorem C11_swap_between_vectors_exchanges : forall L, wf_plist L = true ->
  forall vd vs ld ls od os, RepO L vd ld od -> RepO L vs ls os ->
  forall i j, (i < length ld)%nat -> (j < length ls)%nat ->
  cnts_of (nth i ld []) = cnts_of (nth j ls []) ->
  let r := ref_swap L false vd (Z.of_nat i) vs (Z.of_nat j) in
  RepO L (fst (fst r)) (upd i (nth j ls []) ld) od /\ RepO L (snd (fst r)) (upd j (nth i ld []) ls) os.
Proof. exact ref_swap_refines_exchange_two. Qed.
Print Assumptions C11_swap_between_vectors_exchanges.
