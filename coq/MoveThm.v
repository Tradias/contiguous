(* MoveThm.v — `target = std::move(source)` between element references of equal field sizes in
   different vectors (C11, move form): the target element ends up holding the tuple the source
   held; the source keeps the fields of the trivially move-assignable runs and holds moved-from
   objects (0xEE in the model) in the fields assigned object by object; nothing else changes.
   The move instances of the statements of AssignThm.v. *)
From Coq Require Import ZArith List Bool.
From Cntgs Require Import Layout Mem Vector Proxy Spec Rep ElemThm AssignThm.
Import ListNotations.
Local Open Scope Z_scope.

Lemma assign_objs_move p sb db : 0 < psz p -> forall n x sa da, m_same x = false ->
  let x' := fst (assign_objs true p sb db x sa da n) in
  m_same x' = false /\
  (forall y, m_s x' y = if inr sa (Z.of_nat n * psz p) y then 238 else m_s x y) /\
  (forall y, m_d x' y = if inr da (Z.of_nat n * psz p) y then m_s x (y - da + sa) else m_d x y).
Proof.
  intros Hp n x sa da. rewrite assign_objs_steps. apply Z.lt_le_incl in Hp.
  exact (blocks_spec _ _ true (fun _ => 238) Hp (fun x' a b => assign_obj_spec true p sb db x' a b Hp) n x sa da).
Qed.

Section MoveAssign.
  Variable L : list param.
  Hypothesis Hwf : wf_plist L = true.
  Variables (tx ty : tuple) (fcx fcy : list Z).
  Hypothesis Htx : tuple_ok L fcx 0 tx.
  Hypothesis Hty : tuple_ok L fcy 0 ty.
  Hypothesis Hcn : cnts_of ty = cnts_of tx.          (* equal field sizes *)
  Variables (mx my : mem) (xa ya : Z).
  Hypothesis Hxa : 0 <= xa /\ (SA L | xa).
  Hypothesis Hya : 0 <= ya /\ (SA L | ya).
  Hypothesis Hex : elem_at L mx xa tx.
  Hypothesis Hey : elem_at L my ya ty.

  Let cn := cnts_of tx.
  Let Ax := fst (place L cn xa).
  Let Ay := fst (place L cn ya).
  Let n := length L.
  Let R := runs_asg true L.

  (* number of bytes step k handles, and its block in either element: AssignThm.step_len and
     in_step at the move table, by conversion, as in SwapThm.  Outside the section they take
     L tx xa (ry: and ya) in front. *)
  Definition slen (k : nat) : Z :=
    match nth k R RSkip with
    | RSkip => 0
    | RManual => nth k cn 0 * psz (nth k L pparam0)
    | REnd e => nth e Ax 0 + nth e cn 0 * psz (nth e L pparam0) - nth k Ax 0
    end.
  Definition rx (k : nat) (y : Z) : bool := inr (nth k Ax 0) (slen k) y.
  Definition ry (k : nat) (y : Z) : bool := inr (nth k Ay 0) (slen k) y.

  Let flx := ref_fl L tx xa.
  Let fly := ref_fl L ty ya.

  Lemma range_below k' k y : (k' < k)%nat -> (k < n)%nat -> rx k y = true -> rx k' y = false.
  Proof using Hwf Htx. exact (step_below L Hwf tx fcx Htx xa (tasg true) k' k y). Qed.

  Lemma existsb_below k y : (k < n)%nat -> rx k y = true -> existsb (fun k' => rx k' y) (seq 0 k) = false.
  Proof using Hwf Htx. exact (steps_below L Hwf tx fcx Htx xa (tasg true) rx k y (fun _ _ H => H)). Qed.

  (* step k is an object-wise one: AssignThm.manual at the move table *)
  Definition man (k : nat) : bool := match nth k R RSkip with RManual => true | _ => false end.

  Lemma assign_one_move sb db x k : (k < n)%nat -> m_same x = false ->
    let x' := fst (assign_one true L sb db flx fly x k) in
    m_same x' = false /\
    (forall y, m_s x' y = if man k && rx k y then 238 else m_s x y) /\
    (forall y, m_d x' y = if ry k y then m_s x (y - ya + xa) else m_d x y).
  Proof using Hwf Htx Hty Hcn Hxa Hya.
    exact (assign_one_spec L Hwf tx ty fcx Htx Hcn xa ya Hxa Hya true sb db x k).
  Qed.

  Lemma assign_all_move sb db : forall m k0 x, (k0 + m <= n)%nat -> m_same x = false ->
    (forall y, m_s x y = if existsb (fun k => man k && rx k y) (seq 0 k0) then 238 else mx y) ->
    (forall y, m_d x y = if existsb (fun k => ry k y) (seq 0 k0) then mx (y - ya + xa) else my y) ->
    let x' := fst (assign_all true L sb db flx fly x (seq k0 m)) in
    (forall y, m_s x' y = if existsb (fun k => man k && rx k y) (seq 0 (k0 + m)) then 238 else mx y) /\
    (forall y, m_d x' y = if existsb (fun k => ry k y) (seq 0 (k0 + m)) then mx (y - ya + xa) else my y).
  Proof using Hwf Htx Hty Hcn Hxa Hya.
    intros m k0 x. rewrite assign_all_steps.
    exact (transfer_all L Hwf tx fcx Htx xa ya (tasg true) Hxa Hya _ (fun k y => man k && rx k y) (fun _ => 238)
             (fun k y H => proj2 (proj1 (andb_true_iff _ _) H)) (assign_one_move sb db) mx my m k0 x).
  Qed.

  Theorem ref_move_assign sb db :
    let x' := fst (assign_all true L sb db flx fly {| m_s := mx; m_d := my; m_same := false |} (seq 0 n)) in
    elem_at L (m_d x') ya tx /\
    (forall y, ~ (ya <= y < ya + (elem_end L xa tx - xa)) -> m_d x' y = my y) /\
    (forall y, m_s x' y = if existsb (fun k => man k && rx k y) (seq 0 n) then 238 else mx y).
  Proof using Hwf Htx Hty Hcn Hxa Hya Hex.
    exact (ref_assign_spec L Hwf tx ty fcx Htx Hcn xa ya Hxa Hya true sb db mx my Hex).
  Qed.
End MoveAssign.

(* field-wise move assignment between single elements (FixedSize / plain lists, unequal
   non-propagating allocators, the target owns a block) *)
From Cntgs Require Import Elem.
Theorem elem_move_assign_fieldwise_spec L : wf_plist L = true ->
  forall d src ts td fcs fcd junk nb,
  tuple_ok L fcs 0 ts -> tuple_ok L fcd 0 td -> cnts_of td = cnts_of ts ->
  elem_holds L src ts -> elem_holds L d td -> e_aid d <> e_aid src ->
  (fixed_or_plain L && match e_bid d with Some _ => true | None => false end) = true ->
  let '(d', src', evs, nb') := elem_move_assign false false L d src junk nb in
  elem_holds L d' ts /\ e_bid d' = e_bid d /\ e_units d' = e_units d /\ e_aid d' = e_aid d /\
  e_bid src' = e_bid src /\ nb' = nb.
Proof.
  intros Hwf d src ts td fcs fcd junk nb Hts Htd Hcn Hs Hd Hne Hpath.
  unfold elem_move_assign. cbn [orb]. rewrite (proj2 (Z.eqb_neq _ _) Hne), Hpath.
  destruct (assign_fl_holds true L (bidn (e_bid src)) (bidn (e_bid d)) src d ts td fcs Hwf Hts Hcn Hs Hd) as [H1 H2].
  destruct (assign_fl true L false _ _ _ _ _ _) as [[ms md] evs]. repeat split; assumption.
Qed.
