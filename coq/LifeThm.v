(* LifeThm.v — object lifetimes at element level (C06): the events emplace_at reports are
   exactly one construction per stored object of a non-trivially-constructible field, at the
   address the placement assigns to it; ElementTraits::destruct reports exactly the
   destructions of the objects of the non-trivially-destructible fields.  Both event lists are
   functions of the field table alone. *)
From Coq Require Import ZArith Lia List Bool.
From Cntgs Require Import Layout LayoutThm Mem Vector Spec Rep Ordered Refine.
Import ListNotations.
Local Open Scope Z_scope.

(* addresses of the objects of the fields selected by [sel], field k at xs_k with cnts_k objects *)
Fixpoint obj_addrs (sel : param -> bool) (L : list param) (xs cnts : list Z) : list (Z * Z) :=
  match L, xs, cnts with
  | p :: L', x :: xs', c :: cnts' =>
      (if sel p then map (fun j => (x + Z.of_nat j * psz p, psz p)) (seq 0 (Z.to_nat c)) else [])
        ++ obj_addrs sel L' xs' cnts'
  | _, _, _ => []
  end.

Definition ctor_of (e : ev) : option (Z * Z) :=
  match e with ECtor _ o s | ECopyC _ o s _ _ | EMoveC _ o s _ _ => Some (o, s) | _ => None end.
Definition dtor_of (e : ev) : option (Z * Z) :=
  match e with EDtor _ o s => Some (o, s) | _ => None end.
Fixpoint keep {A B} (f : A -> option B) (l : list A) : list B :=
  match l with [] => [] | x :: r => match f x with Some y => y :: keep f r | None => keep f r end end.

Lemma keep_app {A B} (f : A -> option B) a b : keep f (a ++ b) = keep f a ++ keep f b.
Proof. induction a as [|x a IH]; cbn; [reflexivity|]. destruct (f x); cbn; now rewrite IH. Qed.

Lemma keep_map {A B C} (f : A -> option B) (h : C -> A) (g : C -> B) l :
  (forall x, f (h x) = Some (g x)) -> keep f (map h l) = map g l.
Proof. intros H. induction l as [|x l IH]; cbn [map keep]; [reflexivity|]. now rewrite H, IH. Qed.
Lemma keep_map_inv {A B} (f : A -> option B) (h : B -> A) l : (forall y, f (h y) = Some y) -> keep f (map h l) = l.
Proof. intros H. rewrite <- (map_id l) at 2. apply keep_map. exact H. Qed.
Lemma keep_map_none {A B C} (f : A -> option B) (h : C -> A) l : (forall x, f (h x) = None) -> keep f (map h l) = [].
Proof. intros H. induction l as [|x l IH]; cbn [map keep]; [reflexivity|]. now rewrite H. Qed.

Lemma keep_obj_events_none_d bid a sz n : keep dtor_of (obj_events (fun x => ECtor bid x sz) a sz n) = [].
Proof. apply keep_map_none. reflexivity. Qed.

Lemma objs_S a sz n :
  map (fun j => (a + Z.of_nat j * sz, sz)) (seq 0 (S n)) = (a, sz) :: map (fun j => (a + sz + Z.of_nat j * sz, sz)) (seq 0 n).
Proof.
  cbn [seq map]. rewrite <- seq_shift, map_map. f_equal; [f_equal; lia|].
  apply map_ext. intros j. f_equal. lia.
Qed.

Definition ctor_ev (bid : nat) (os : Z * Z) : ev := ECtor bid (fst os) (snd os).
Definition dtor_ev (bid : nat) (os : Z * Z) : ev := EDtor bid (fst os) (snd os).

Lemma obj_events_addrs (mk : Z * Z -> ev) a sz n :
  obj_events (fun x => mk (x, sz)) a sz n = map mk (map (fun j => (a + Z.of_nat j * sz, sz)) (seq 0 n)).
Proof. unfold obj_events. symmetry. apply map_map. Qed.

Lemma store_from_events L : forall pv vals bid m a,
  snd (fst (store_from L pv vals bid m a)) =
    map (ctor_ev bid) (obj_addrs (ntc false) L (fst (place_from L pv (cnts_of vals) a)) (cnts_of vals)).
Proof.
  induction L as [|p L IH]; intros pv vals bid m a; [reflexivity|].
  destruct pv as [|pt pv]; [reflexivity|]. destruct vals as [|f vals]; [reflexivity|].
  cbn [store_from cnts_of map]. fold (cnts_of vals). rewrite place_from_cons. cbn [fst obj_addrs].
  specialize (IH pv vals bid (mwrite m (align_if (pt <? pal p) (pal p) a) (concat f))
                 (align_if (pt <? pal p) (pal p) a + Z.of_nat (length f) * psz p)).
  destruct (store_from L pv vals bid _ _) as [[m2 evs2] e]. cbn [fst snd] in *.
  rewrite map_app, IH, Nat2Z.id. f_equal. destruct (ntc _ p); [|reflexivity].
  apply (obj_events_addrs (ctor_ev bid)).
Qed.

Lemma destruct_fields_events L : forall xs cnts bid m,
  snd (destruct_fields L (combine xs cnts) bid m) = map (dtor_ev bid) (obj_addrs ntd L xs cnts).
Proof.
  induction L as [|p L IH]; intros xs cnts bid m; [reflexivity|].
  destruct xs as [|x xs]; [reflexivity|]. destruct cnts as [|c cnts]; [reflexivity|].
  cbn [combine destruct_fields obj_addrs].
  specialize (IH xs cnts bid (if ntd p then scribble m x (psz p) (Z.to_nat c) (dead_bytes (psz p)) else m)).
  destruct (destruct_fields L (combine xs cnts) bid _) as [m2 evs2]. cbn [snd] in *.
  rewrite map_app, IH. f_equal. destruct (ntd p); [|reflexivity].
  apply (obj_events_addrs (dtor_ev bid)).
Qed.

Theorem store_from_constructs L pv vals bid m a :
  keep ctor_of (snd (fst (store_from L pv vals bid m a))) =
    obj_addrs (ntc false) L (fst (place_from L pv (cnts_of vals) a)) (cnts_of vals).
Proof. rewrite store_from_events. apply keep_map_inv. intros [o s]. reflexivity. Qed.

Theorem destruct_fields_destroys L xs cnts bid m :
  keep dtor_of (snd (destruct_fields L (combine xs cnts) bid m)) = obj_addrs ntd L xs cnts.
Proof. rewrite destruct_fields_events. apply keep_map_inv. intros [o s]. reflexivity. Qed.

Lemma obj_addrs_none sel L : forall xs cnts, forallb (fun p => negb (sel p)) L = true -> obj_addrs sel L xs cnts = [].
Proof.
  induction L as [|p L IH]; intros xs cnts H; [reflexivity|].
  cbn [forallb] in H. apply andb_true_iff in H. destruct H as [Hp H]. apply negb_true_iff in Hp.
  destruct xs; [reflexivity|]. destruct cnts; [reflexivity|]. cbn [obj_addrs]. rewrite Hp. cbn [app]. apply IH; auto.
Qed.

Lemma obj_addrs_same s1 s2 : forall L xs cnts, (forall p, In p L -> s1 p = s2 p) ->
  obj_addrs s1 L xs cnts = obj_addrs s2 L xs cnts.
Proof.
  induction L as [|p L IH]; intros xs cnts H; [reflexivity|].
  destruct xs; [reflexivity|]. destruct cnts; [reflexivity|]. cbn [obj_addrs].
  rewrite (H p (or_introl eq_refl)). f_equal. apply IH. intros q Hq. apply H. right; exact Hq.
Qed.

(* Constructed once, destroyed once: for a list whose non-trivial types have both a
   non-trivial constructor and destructor, destroying an element that was just stored destroys
   exactly the objects its emplacement constructed — found again through the LOAD path (counts
   read back from memory). *)
Theorem emplace_then_destruct_balanced L fixed t bid m a :
  wf_plist L = true -> (forall mv p, In p L -> ntc mv p = ntd p) ->
  tuple_ok L (fixed_counts L fixed) 0 t ->
  let r := store L t bid m a in
  let m' := fst (fst r) in
  keep ctor_of (snd (fst r)) = keep dtor_of (snd (destruct_fields L (fst (load L fixed m' a)) bid m')).
Proof.
  intros Hwf Hsame Ht. cbv zeta.
  destruct (store_spec L Hwf t bid m a _ Ht) as (_ & Hel & _).
  rewrite (load_table L Hwf fixed _ a t Ht Hel), destruct_fields_destroys.
  unfold store. rewrite store_from_constructs. apply obj_addrs_same. exact (Hsame false).
Qed.
