(* C02HistNt.v — C02 / C10 at history level under the restriction NtRefine.nt_ok on the
   history (erase with elements behind the erased ones only on trivially relocatable lists):
   instances of the theorems of C02Hist.v. *)
From Coq Require Import ZArith List.
From Cntgs Require Import Layout Vector Spec Rep Refine StableThm NeededThm C02Hist NtRefine.
Import ListNotations.
Local Open Scope Z_scope.

Section HistNt.
  Variable L : list param.
  Hypothesis Hwf : wf_plist L = true.
  Hypothesis Htl : tail_ok (SA L) true L = true.

  Lemma vstep_frame_nt junk v s o : Rep L v (s_elems s) ->
    svalid L (fixed_counts L (v_fixed v)) s o -> nt_ok L s o ->
    v_stride (vstep L junk v o) = v_stride v /\
    v_units (vstep L junk v o) =
      match o with
      | SReserve n b =>
          if v_cap v <? n then
            units L (if has_varying L then needed n b (esize L (v_fixed v)) else needed_grow_fixed n b (v_stride v))
          else v_units v
      | _ => v_units v
      end.
  Proof using Hwf. intros _ _ _. apply vstep_stride_units. Qed.

  Lemma binv_step_core junk v s B o : BInv L v s B ->
    svalid L (fixed_counts L (v_fixed v)) s o -> bvalid L s B o ->
    (Rep L (vstep L junk v o) (s_elems (sstep s o)) /\ v_cap (vstep L junk v o) = s_cap (sstep s o) /\
     v_fixed (vstep L junk v o) = v_fixed v) ->
    (v_stride (vstep L junk v o) = v_stride v /\
     v_units (vstep L junk v o) =
       match o with
       | SReserve n b =>
           if v_cap v <? n then
             units L (if has_varying L then needed n b (esize L (v_fixed v)) else needed_grow_fixed n b (v_stride v))
           else v_units v
       | _ => v_units v
       end) ->
    BInv L (vstep L junk v o) (sstep s o) (bstep s B o).
  Proof using Hwf Htl. intros HI Hv Hbv HR _. exact (binv_step_of L Hwf junk v s B o HI Hv Hbv HR). Qed.

  Theorem binv_step_nt junk v s B o : BInv L v s B ->
    svalid L (fixed_counts L (v_fixed v)) s o -> bvalid L s B o -> nt_ok L s o ->
    BInv L (vstep L junk v o) (sstep s o) (bstep s B o).
  Proof using Hwf Htl. intros HI Hv Hbv Hn. exact (binv_step_ntx L Hwf junk v s B o HI Hv Hbv (or_intror Hn)). Qed.

  Theorem binv_run_nt junk h : forall v s B, BInv L v s B ->
    shist_valid L (fixed_counts L (v_fixed v)) s h -> bhist_valid L s B h -> nt_hist_ok L s h ->
    exists B', BInv L (vrun L junk v h) (srun s h) B'.
  Proof using Hwf Htl.
    intros v s B HI Hv Hb Hn. exact (binv_run_ntx L Hwf junk h v s B HI Hv Hb (nt_hist_ok_okx L h s Hn)).
  Qed.
End HistNt.

Theorem every_element_inside_block_every_history_nt : forall L cap budget fixed aid junk bid tbid h,
  wf_plist L = true -> tail_ok (SA L) true L = true ->
  0 <= cap -> 0 <= budget -> Forall (fun c => 0 <= c) fixed ->
  let v0 := fst (mkvec L cap budget fixed aid junk bid tbid) in
  let s0 := {| s_cap := cap; s_elems := [] |} in
  shist_valid L (fixed_counts L fixed) s0 h -> bhist_valid L s0 budget h -> nt_hist_ok L s0 h ->
  let v := vrun L junk v0 h in
  let l := s_elems (srun s0 h) in
  exists offs, RepO L v l offs /\
    Forall2 (fun a t => 0 <= a /\ elem_end L a t <= SA L * v_units v) offs l.
Proof.
  intros L cap budget fixed aid junk bid tbid h Hwf Htl Hcap Hb Hfx v0 s0 Hv Hbv Hn.
  apply every_element_inside_block_every_history_ntx; auto. apply nt_hist_ok_okx. exact Hn.
Qed.
