(* ElemThm.v — C12: a ContiguousElement constructed from a reference is a deep copy: its own
   block holds exactly the source element's tuple, the source is unchanged.  Proved for
   every well-formed parameter list of trivially copy/move-constructible types.  Every
   constructor and assignment of an element goes through [store_and_load]: what that call
   returns (store_and_load_spec) carries the theorems about the operations. *)
From Coq Require Import ZArith List Bool Lia.
From Cntgs Require Import ListAux Layout LayoutThm Mem MemLemmas Vector Proxy Elem Spec Rep ElemLemmas StableThm.
Import ListNotations.
Local Open Scope Z_scope.

(* the end of the last field is the end of the element.  Placement continues at the end of
   the field before: with that field (and its parameter) as the defaults of [last], the
   statement also holds of the empty list, which makes the induction go through *)
Lemma place_from_last_gen L : forall p f pv cnts a,
  (length L <= length pv)%nat -> length cnts = length L -> (L = [] -> fend p f = a) ->
  fend (last L p) (last (combine (fst (place_from L pv cnts a)) cnts) f) = snd (place_from L pv cnts a).
Proof.
  induction L as [|q L IH]; intros p f pv cnts a Hpv Hc Ha; [exact (Ha eq_refl)|].
  destruct pv as [|pt pv]; [inversion Hpv|]. destruct cnts as [|c cnts]; [discriminate|].
  apply le_S_n in Hpv. injection Hc as Hc. cbn [place_from].
  specialize (IH q (align_if (pt <? pal q) (pal q) a, c) pv cnts (align_if (pt <? pal q) (pal q) a + c * psz q)
                 Hpv Hc (fun _ => eq_refl)).
  destruct (place_from L pv cnts _) as [r e]. cbn [fst snd combine] in *.
  rewrite !last_cons_. exact IH.
Qed.

Lemma relocate_fields_is_construct mv L : forall fl sb b ms m d,
  relocate_fields mv L fl sb b ms m d =
  construct_fields mv L fl (map (fun ac => (fst ac + d, snd ac)) fl) sb b ms m.
Proof.
  induction L as [|p L IH]; intros fl sb b ms m d; [reflexivity|]. destruct fl as [|[a c] fl]; [reflexivity|].
  cbn [relocate_fields construct_fields map fst snd].
  destruct (if ntc mv p then _ else _) as [[ms1 m1] e1]. rewrite IH. reflexivity.
Qed.

Lemma construct_fields_no_alloc mv sb db : forall L fls fld ms md,
  no_alloc (snd (construct_fields mv L fls fld sb db ms md)).
Proof.
  induction L as [|p L IH]; intros fls fld ms md; [reflexivity|].
  destruct fls as [|[sa c] fls]; [reflexivity|]. destruct fld as [|[da c'] fld]; [reflexivity|].
  cbn [construct_fields].
  assert (H1 : no_alloc (snd (if ntc mv p then relocate_objs mv p sb db ms md sa da (Z.to_nat c) else (ms, md, []))))
    by (destruct (ntc mv p); [apply relocate_objs_no_alloc|reflexivity]).
  destruct (if ntc mv p then _ else _) as [[ms1 md1] e1]. specialize (IH fls fld ms1 md1).
  destruct (construct_fields mv L fls fld sb db ms1 md1) as [[ms2 md2] e2]. cbn [snd] in *.
  apply no_alloc_app; assumption.
Qed.

Lemma construct_fields_triv mv : forall L fls fld sb db ms md,
  all_ctriv mv L = true -> construct_fields mv L fls fld sb db ms md = (ms, md, []).
Proof.
  induction L as [|p L IH]; intros fls fld sb db ms md H; [reflexivity|].
  unfold all_ctriv in H. cbn [forallb] in H. apply andb_true_iff in H. destruct H as [Hp HL].
  destruct fls as [|[sa c] fls]; [reflexivity|]. destruct fld as [|[da c'] fld]; [reflexivity|].
  cbn [construct_fields]. apply negb_true_iff in Hp. rewrite Hp.
  rewrite (IH fls fld sb db ms md HL). reflexivity.
Qed.

Lemma store_and_load_shape mv L ms fls sb n md db : exists ms1 md1,
  store_and_load mv L ms fls sb n md db =
  (ms1, md1, fl_at0 L fls,
   ERaw db 0 n :: snd (construct_fields mv L fls (fl_at0 L fls) sb db ms (mcopy ms (fst (hd fld0 fls)) md 0 n))).
Proof.
  unfold store_and_load. destruct (construct_fields mv L fls _ sb db ms _) as [[ms1 md1] evs].
  exists ms1, md1. reflexivity.
Qed.

Lemma elem_from_ref_shape mv L ms fls sb aid junk nb : exists ms1 md1,
  elem_from_ref mv L ms fls sb aid junk nb =
  (ms1, {| e_bid := Some nb; e_units := units L (ref_bytes L fls); e_aid := aid; e_mem := md1; e_fl := fl_at0 L fls |},
   EAlloc aid (SA L) (units L (ref_bytes L fls)) nb :: ERaw nb 0 (ref_bytes L fls) ::
   snd (construct_fields mv L fls (fl_at0 L fls) sb nb ms (mcopy ms (fst (hd fld0 fls)) junk 0 (ref_bytes L fls)))).
Proof.
  unfold elem_from_ref. destruct (store_and_load_shape mv L ms fls sb (ref_bytes L fls) junk nb) as (ms1 & md1 & ->).
  exists ms1, md1. reflexivity.
Qed.

Lemma elem_destruct_triv L d : all_dtriv L = true -> elem_destruct L d = (d, []).
Proof. intros H. unfold elem_destruct. rewrite H. destruct (e_bid d); reflexivity. Qed.

Lemma elem_destruct_units L d : e_units (fst (elem_destruct L d)) = e_units d.
Proof.
  unfold elem_destruct. destruct (e_bid d) as [b|]; [|reflexivity]. destruct (all_dtriv L); [reflexivity|].
  destruct (destruct_fields L (e_fl d) b (e_mem d)) as [m evs]. reflexivity.
Qed.

Lemma elem_destruct_no_alloc L e : no_alloc (snd (elem_destruct L e)).
Proof.
  unfold elem_destruct. destruct (e_bid e) as [b|]; [|reflexivity]. destruct (all_dtriv L); [reflexivity|].
  pose proof (destruct_fields_no_alloc L (e_fl e) b (e_mem e)) as H.
  destruct (destruct_fields L (e_fl e) b (e_mem e)) as [m evs]. exact H.
Qed.

Section RefTable.
  Variable L : list param.

  (* the field table a reference to the element at [a] holds *)
  Definition ref_fl (t : tuple) (a : Z) : list (Z * Z) :=
    combine (fst (place L (cnts_of t) a)) (cnts_of t).

  Lemma place_last cnts a : L <> [] -> length cnts = length L ->
    fend (last L pparam0) (last (combine (fst (place L cnts a)) cnts) fld0) = snd (place L cnts a).
  Proof.
    intros Hne Hc. apply place_from_last_gen; [rewrite prevs_length; lia|exact Hc|intros E; contradiction].
  Qed.

  Lemma ref_fl_fst t a fc : tuple_ok L fc 0 t -> map fst (ref_fl t a) = fst (place L (cnts_of t) a).
  Proof.
    intros Ht. pose proof (cnts_length L t fc Ht) as Hc. apply map_fst_combine_.
    rewrite (place_fst_length L _ a Hc). symmetry. exact Hc.
  Qed.

  Lemma ref_fl_snd t a fc : tuple_ok L fc 0 t -> map snd (ref_fl t a) = cnts_of t.
  Proof.
    intros Ht. pose proof (cnts_length L t fc Ht) as Hc. apply map_snd_combine.
    rewrite (place_fst_length L _ a Hc). symmetry. exact Hc.
  Qed.

  Lemma nth_fl a t fc : tuple_ok L fc 0 t -> forall j, (j < length L)%nat ->
    nth j (ref_fl t a) fld0 = (nth j (fst (place L (cnts_of t) a)) 0, nth j (cnts_of t) 0).
  Proof.
    intros Ht j Hj. unfold ref_fl. pose proof (cnts_length L t fc Ht) as Hc.
    pose proof (place_fst_length L _ a Hc) as Hl.
    rewrite (nth_indep _ fld0 (0, 0)) by (rewrite combine_length, Hl, Hc, Nat.min_id; exact Hj).
    apply combine_nth. rewrite Hl, Hc. reflexivity.
  Qed.

  Lemma fl_at0_ref_fl t a fc : tuple_ok L fc 0 t -> fl_at0 L (ref_fl t a) = ref_fl t 0.
  Proof. intros Ht. unfold fl_at0. rewrite (ref_fl_snd t a fc Ht). reflexivity. Qed.

  Hypothesis Hwf : wf_plist L = true.

  Lemma ref_fl_hd t a fc : tuple_ok L fc 0 t -> 0 <= a -> (SA L | a) -> fst (hd fld0 (ref_fl t a)) = a.
  Proof.
    intros Ht Ha Hd. pose proof (cnts_length L t fc Ht) as Hc. pose proof (place_fst_length L _ a Hc) as Hl.
    pose proof (place_first L (cnts_of t) a Hwf (tuple_ok_cnt_ok L _ _ _ Ht) Ha Hd) as Hf.
    assert (Hn : length L <> O) by (intros E; apply length_zero_iff_nil in E; exact (wf_plist_nonempty L Hwf E)).
    unfold ref_fl. destruct (fst (place L (cnts_of t) a)) as [|x xs]; [symmetry in Hl; contradiction|].
    destruct (cnts_of t) as [|c cs]; [symmetry in Hc; contradiction|]. exact Hf.
  Qed.

  Lemma ref_fl_bytes t a fc : tuple_ok L fc 0 t -> 0 <= a -> (SA L | a) ->
    ref_bytes L (ref_fl t a) = elem_end L a t - a.
  Proof.
    intros Ht Ha Hd. unfold ref_bytes. rewrite (ref_fl_hd t a fc Ht Ha Hd). f_equal.
    exact (place_last _ a (wf_plist_nonempty L Hwf) (cnts_length L t fc Ht)).
  Qed.

  (* the one call through which an element is filled from a reference: for trivially
     constructible types it is the memcpy alone, which puts the tuple at offset 0 *)
  Lemma store_and_load_spec mv ms a t fc sb junk db :
    all_ctriv mv L = true -> tuple_ok L fc 0 t -> elem_at L ms a t -> 0 <= a -> (SA L | a) ->
    exists md, store_and_load mv L ms (ref_fl t a) sb (ref_bytes L (ref_fl t a)) junk db
               = (ms, md, ref_fl t 0, [ERaw db 0 (elem_end L a t - a)]) /\ elem_at L md 0 t.
  Proof.
    intros Hc Ht He Ha Hd. pose proof (wf_plist_Forall L Hwf) as HF.
    unfold store_and_load. rewrite (construct_fields_triv mv L _ _ _ _ _ _ Hc).
    rewrite (fl_at0_ref_fl t a fc Ht), (ref_fl_bytes t a fc Ht Ha Hd), (ref_fl_hd t a fc Ht Ha Hd).
    eexists. split; [reflexivity|].
    (* the bytes of the element, moved down by [a] *)
    unfold elem_at in *. replace 0 with (a + - a) at 2 by lia.
    apply (elem_from_shift L (prevs L) ms _ a t fc 0 (- a) HF Ht); [| |exact He].
    - intros p Hp. apply Z.divide_opp_r, (Z.divide_trans _ _ _ (SA_div L p HF Hp) Hd).
    - intros x Hx. fold (place L (cnts_of t) a) in Hx. fold (elem_end L a t) in Hx.
      unfold mcopy. rewrite (proj2 (inr_true 0 (elem_end L a t - a) (x + - a))) by lia. f_equal. lia.
  Qed.
End RefTable.

Section ElemCopies.
  Variable L : list param.
  Hypothesis Hwf : wf_plist L = true.
  Hypothesis Hctriv : forall mv, all_ctriv mv L = true.
  Hypothesis Hdtriv : all_dtriv L = true.

  Theorem elem_from_ref_spec mv ms a t fc sb aid junk nb :
    tuple_ok L fc 0 t -> elem_at L ms a t -> 0 <= a -> (SA L | a) ->
    let '(ms1, el, evs) := elem_from_ref mv L ms (ref_fl L t a) sb aid junk nb in
    ms1 = ms /\ elem_at L (e_mem el) 0 t /\ e_fl el = ref_fl L t 0 /\
    e_bid el = Some nb /\ e_aid el = aid /\ e_units el = units L (elem_end L a t - a).
  Proof.
    intros Ht He Ha Hd. unfold elem_from_ref.
    destruct (store_and_load_spec L Hwf mv ms a t fc sb junk nb (Hctriv mv) Ht He Ha Hd) as (md & -> & He').
    rewrite (ref_fl_bytes L Hwf t a fc Ht Ha Hd). repeat split. exact He'.
  Qed.

  Definition elem_holds (e : elem) (t : tuple) : Prop :=
    elem_at L (e_mem e) 0 t /\ e_fl e = ref_fl L t 0.

  Lemma store_and_load_holds mv src t fc junk db :
    all_ctriv mv L = true -> tuple_ok L fc 0 t -> elem_holds src t ->
    exists md evs, store_and_load mv L (e_mem src) (e_fl src) (bidn (e_bid src)) (ref_bytes L (e_fl src)) junk db
                   = (e_mem src, md, ref_fl L t 0, evs) /\ elem_at L md 0 t.
  Proof.
    intros Hc Ht [He Hfl]. rewrite Hfl.
    destruct (store_and_load_spec L Hwf mv (e_mem src) 0 t fc (bidn (e_bid src)) junk db Hc Ht He
                (Z.le_refl 0) (Z.divide_0_r _)) as (md & E & He').
    eauto.
  Qed.

  (* the source is not touched: it is not even an output of elem_copy *)
  Theorem elem_copy_spec src t fc aid junk nb : tuple_ok L fc 0 t -> elem_holds src t ->
    let '(d, evs) := elem_copy L src aid junk nb in
    elem_holds d t /\ e_bid d = Some nb /\ e_aid d = aid /\ e_units d = e_units src.
  Proof.
    intros Ht Hs. unfold elem_copy.
    destruct (store_and_load_holds false src t fc junk nb (Hctriv false) Ht Hs) as (md & evs & -> & He).
    repeat split. exact He.
  Qed.

  (* the general (re-allocating) path, into ANY target, moved-from or not, whatever its size *)
  Theorem elem_copy_assign_general_spec pocca ae d src t fc junk nb :
    tuple_ok L fc 0 t -> elem_holds src t ->
    (fixed_or_plain L && (negb pocca || ae) && match e_bid d with Some _ => true | None => false end) = false ->
    let '(d', evs, nb') := elem_copy_assign pocca ae L d src junk nb in
    elem_holds d' t /\ e_bid d' = Some nb /\ e_aid d' = (if pocca then e_aid src else e_aid d) /\
    e_units d' = e_units src.
  Proof.
    intros Ht Hs Hpath. unfold elem_copy_assign. rewrite Hpath, (elem_destruct_triv L d Hdtriv).
    destruct (store_and_load_holds false src t fc junk nb (Hctriv false) Ht Hs) as (md & evs & -> & He).
    repeat split. exact He.
  Qed.

  Theorem elem_steal_spec pocma d src t : elem_holds src t ->
    let '(d', src', evs) := elem_steal pocma L d src in
    elem_holds d' t /\ e_bid d' = e_bid src /\ e_bid src' = None /\
    e_aid d' = (if pocma then e_aid src else e_aid d).
  Proof.
    intros Hs. unfold elem_steal. destruct (elem_destruct L d) as [d1 e1]. repeat split; apply Hs.
  Qed.

  (* the general path: unequal non-propagating allocators; a list with a VaryingSize parameter,
     or a target without storage.  For these (trivially constructible) types the source keeps
     bytes and block *)
  Theorem elem_move_assign_general_spec pocma ae d src t fc junk nb :
    tuple_ok L fc 0 t -> elem_holds src t ->
    (ae || pocma || (e_aid d =? e_aid src)) = false ->
    (fixed_or_plain L && match e_bid d with Some _ => true | None => false end) = false ->
    let '(d', src', evs, nb') := elem_move_assign pocma ae L d src junk nb in
    elem_holds d' t /\ e_aid d' = e_aid d /\
    e_bid d' = (if e_units d <? ref_bytes L (e_fl src) then Some nb else e_bid d) /\
    e_mem src' = e_mem src /\ e_fl src' = e_fl src /\ e_bid src' = e_bid src.
  Proof.
    intros Ht Hs Hns Hpath. unfold elem_move_assign. rewrite Hns, Hpath, (elem_destruct_triv L d Hdtriv).
    destruct (e_units d <? ref_bytes L (e_fl src)).
    - destruct (store_and_load_holds true src t fc junk nb (Hctriv true) Ht Hs) as (md & evs & -> & He).
      repeat split. exact He.
    - destruct (store_and_load_holds true src t fc (e_mem d) (bidn (e_bid d)) (Hctriv true) Ht Hs) as (md & evs & -> & He).
      repeat split. exact He.
  Qed.

  (* the allocator-extended move constructor value_type(std::move(e), alloc) *)
  Theorem elem_move_alloc_spec ae src t fc aid junk nb : tuple_ok L fc 0 t -> elem_holds src t ->
    let '(d, src', evs, fresh) := elem_move_alloc ae L src aid junk nb in
    elem_holds d t /\
    (if ae || (aid =? e_aid src)
     then e_bid d = e_bid src /\ e_bid src' = None /\ fresh = false
     else e_bid d = Some nb /\ e_aid d = aid /\ e_units d = e_units src /\ e_bid src' = e_bid src /\
          e_mem src' = e_mem src /\ fresh = true).
  Proof.
    intros Ht Hs. unfold elem_move_alloc. destruct (ae || (aid =? e_aid src)).
    - repeat split; apply Hs.
    - destruct (store_and_load_holds true src t fc junk nb (Hctriv true) Ht Hs) as (md & evs & -> & He).
      repeat split. exact He.
  Qed.
End ElemCopies.
