(* emplace(position, args...) (vector.hpp:174-188) on lists WITHOUT a VaryingSize parameter:
   the vector afterwards represents the list with the new tuple inserted at the position -
   and the call writes the bytes of one element BEHIND the new end of data (the scratch copy
   of the new element): the recorded finding emplace-position-scratch (C02). *)
From Coq Require Import ZArith Lia List.
From Cntgs Require Import ListAux Layout Mem MemLemmas Vector Spec Rep StableThm Ordered Refine FixedErase NtRefine.
Import ListNotations.
Local Open Scope Z_scope.

Definition linsert (i : nat) (t : tuple) (l : list tuple) : list tuple := firstn i l ++ t :: skipn i l.

Lemma linsert_length i t l : (i <= length l)%nat -> length (linsert i t l) = S (length l).
Proof.
  intros Hi. unfold linsert. rewrite app_length, firstn_length. cbn [length]. rewrite skipn_length. lia.
Qed.

Lemma linsert_nth i t l k : (i <= length l)%nat ->
  nth k (linsert i t l) [] = if (k <? i)%nat then nth k l [] else if (k =? i)%nat then t else nth (k - 1) l [].
Proof.
  intros Hi. unfold linsert.
  destruct (Nat.ltb_spec k i) as [Hlt|Hge].
  - rewrite app_nth1 by (rewrite firstn_length; lia). apply nth_firstn_. exact Hlt.
  - rewrite app_nth2 by (rewrite firstn_length; lia). rewrite firstn_length.
    replace (Init.Nat.min i (length l)) with i by lia.
    destruct (Nat.eqb_spec k i) as [->|Hne].
    + rewrite Nat.sub_diag. reflexivity.
    + replace (k - i)%nat with (S (k - i - 1)) by lia. cbn [nth]. rewrite nth_skipn_. f_equal. lia.
Qed.

Lemma linsert_Forall (P : tuple -> Prop) i t l : Forall P l -> P t -> Forall P (linsert i t l).
Proof.
  intros Hl Ht. rewrite Forall_forall in *. intros u Hu. apply in_app_or in Hu.
  destruct Hu as [Hu|[<-|Hu]]; [apply Hl; eapply In_firstn_; exact Hu|exact Ht|apply Hl; eapply In_skipn_; exact Hu].
Qed.

(* the two byte moves of emplace(position): the [b - p] bytes from the position [p] on - the new
   element, [w] bytes at the end [b] of the data, included - go up by [w]; then the copy of the
   new element, now behind [b], goes to the position *)
Lemma emplace_moves m p b w : 0 <= w -> p + w <= b ->
  let m2 := mmove (mmove m p (p + w) (b - p)) b p w in
  (forall x, x < p -> m2 x = m x) /\
  (forall x, p <= x < p + w -> m2 x = m (x - p + (b - w))) /\
  (forall x, p + w <= x < b + w -> m2 x = m (x - w)).
Proof.
  intros Hw Hp. split; [|split]; intros x Hx.
  - rewrite !mmove_out by lia. reflexivity.
  - rewrite !mmove_in by lia. f_equal. lia.
  - rewrite mmove_out, mmove_in by lia. f_equal. lia.
Qed.

Section EmplacePos.
  Variable L : list param.
  Hypothesis Hwf : wf_plist L = true.
  Hypothesis Hv : has_varying L = false.

  Variables (v : vec) (l : list tuple) (offs : list Z).
  Hypothesis R : RepO L v l offs.
  Let S := v_stride v.
  Let n := length l.
  Let fc := fixed_counts L (v_fixed v).

  Lemma emplace_back_fixed t : exists m1 e1, emplace_back L v t = (set_count (set_mem v m1) (v_count v + 1), e1).
  Proof. unfold emplace_back. rewrite Hv. destruct (store L t _ _ _) as [[m evs] e]. eauto. Qed.

  Theorem emplace_pos_rep i t : (i <= n)%nat -> Z.of_nat n < v_cap v -> tuple_ok L fc 0 t ->
    let v' := fst (emplace_pos L v (Z.of_nat i) t) in
    Rep L v' (linsert i t l) /\ v_cap v' = v_cap v /\ v_fixed v' = v_fixed v.
  Proof.
    intros Hi Hcap Ht.
    destruct (fixed_loc L Hv v l offs R) as (Hcnt & _ & Hst). pose proof Hst as (HS0 & _).
    destruct (emplace_back_fixed t) as (m1 & e1 & E1).
    pose proof (emplace_rep L Hwf v l t (ex_intro _ offs R) Hcap Ht) as [offs1 R1]. rewrite E1 in R1.
    unfold emplace_pos. rewrite E1. cbn [fst].
    set (v1 := set_count (set_mem v m1) (v_count v + 1)) in *.
    unfold dend, eaddr. rewrite Hv. change (v_stride v1) with S. change (v_count v1) with (v_count v + 1).
    change (v_mem v1) with m1. rewrite Hcnt. fold n.
    split; [|split; reflexivity].
    pose proof (proj1 (Forall_nth _ l) (r_tuples _ _ _ _ R)) as Htl.
    (* after emplace_back the slots hold l ++ [t] *)
    assert (Hold : forall k, (k < n)%nat -> elem_at L m1 (S * Z.of_nat k) (nth k l [])).
    { intros k Hk. rewrite <- (app_nth1 l [t] [] Hk). apply (orig_elem L Hv v1 _ offs1 R1 k). rewrite app_length. fold n. lia. }
    assert (Hnew : elem_at L m1 (S * Z.of_nat n) t).
    { pose proof (orig_elem L Hv v1 _ offs1 R1 n ltac:(rewrite app_length; fold n; cbn [length]; lia)) as H.
      rewrite app_nth2, Nat.sub_diag in H by (fold n; lia). exact H. }
    pose proof (slot_le S i n HS0 Hi) as Hin.
    destruct (emplace_moves m1 (S * Z.of_nat i) (S * (Z.of_nat n + 1)) (S * (Z.of_nat n + 1) - S * Z.of_nat n)
                ltac:(lia) ltac:(lia)) as (MA & MB & MC).
    set (m2 := mmove _ _ _ _) in *.
    pose proof (linsert_length i t l Hi) as Hlen. fold n in Hlen, Hcnt.
    eexists. apply (RepO_slots L Hwf); unfold v1; cbn [v_stride v_fixed v_count v_cap v_mem set_count set_mem]; fold S; rewrite ?Hlen;
      [exact Hv|exact Hst|apply linsert_Forall; [exact (r_tuples _ _ _ _ R)|exact Ht]|lia|lia|].
    (* slot k gets its bytes from slot k, from the scratch copy in slot n, or from slot k - 1 *)
    intros k Hk. rewrite (linsert_nth i t l k Hi).
    destruct (Nat.ltb_spec k i) as [Hlt|Hge]; [|destruct (Nat.eqb_spec k i) as [->|Hne]].
    - apply (slot_transfer L fc S m1 m2 k k _ Hwf Hst (Htl k [] ltac:(fold n; lia))); [|apply Hold; lia].
      intros x Hx. pose proof (slot_le S (Datatypes.S k) i HS0 Hlt). rewrite MA by lia. f_equal. lia.
    - apply (slot_transfer L fc S m1 m2 n i t Hwf Hst Ht); [|exact Hnew].
      intros x Hx. rewrite MB by lia. f_equal. lia.
    - destruct k as [|k]; [lia|]. rewrite Nat.sub_succ, Nat.sub_0_r.
      apply (slot_transfer L fc S m1 m2 k (Datatypes.S k) _ Hwf Hst (Htl k [] ltac:(fold n; lia))); [|apply Hold; lia].
      intros x Hx. pose proof (slot_le S i k HS0 ltac:(lia)). pose proof (slot_le S (Datatypes.S k) n HS0 ltac:(lia)).
      rewrite MC by lia. f_equal. lia.
  Qed.

  (* what the call writes: the bytes [S*(i+1), S*(n+2)) - one element beyond the n+1 elements
     the vector holds afterwards *)
  Theorem emplace_pos_writes i t : (i <= n)%nat ->
    In (ERaw (bidn (v_bid v)) (S * (Z.of_nat i + 1)) (S * (Z.of_nat n + 2)))
       (snd (emplace_pos L v (Z.of_nat i) t)).
  Proof.
    intros Hi. destruct (fixed_loc L Hv v l offs R) as (Hcnt & _ & _).
    destruct (emplace_back_fixed t) as (m1 & e1 & E1).
    unfold emplace_pos. rewrite E1. cbn [snd].
    unfold dend, eaddr. rewrite Hv. cbn [v_stride v_count set_count set_mem]. fold S. rewrite Hcnt. fold n.
    apply in_or_app. right. left. f_equal; ring.
  Qed.
End EmplacePos.

(* C16 / C07: emplace(position) within capacity never touches the allocator and keeps block
   and capacity (every list: the events are those of emplace_back plus raw byte moves) *)
Theorem emplace_pos_no_alloc L v i t :
  no_alloc (snd (emplace_pos L v i t)) /\ v_bid (fst (emplace_pos L v i t)) = v_bid v /\
  v_cap (fst (emplace_pos L v i t)) = v_cap v.
Proof.
  unfold emplace_pos. destruct (emplace_back_no_alloc L v t) as (H1 & H2 & H3).
  destruct (emplace_back L v t) as [v1 e1].
  split; [apply no_alloc_app; [exact H1|reflexivity]|]. split; [exact H2|exact H3].
Qed.

Lemma remove_range_linsert i t (l : list tuple) : (i <= length l)%nat ->
  remove_range i (S i) (linsert i t l) = l.
Proof.
  intros Hi. unfold remove_range, linsert.
  assert (Hl : length (firstn i l) = i) by (rewrite firstn_length; lia).
  rewrite firstn_app, skipn_app, firstn_firstn, Nat.min_id, Hl, Nat.sub_diag, (skipn_all2 (n := S i)) by lia.
  rewrite Nat.sub_succ_l, Nat.sub_diag by lia. cbn [firstn skipn app]. rewrite app_nil_r. apply firstn_skipn.
Qed.

(* emplace(position) followed by erase(position) gives back the list, whatever the value types *)
Theorem emplace_then_erase_fixed L : wf_plist L = true -> has_varying L = false ->
  forall v l offs, RepO L v l offs ->
  forall i t, (i <= length l)%nat -> Z.of_nat (length l) < v_cap v ->
  tuple_ok L (fixed_counts L (v_fixed v)) 0 t ->
  Rep L (fst (erase L (fst (emplace_pos L v (Z.of_nat i) t)) (Z.of_nat i))) l.
Proof.
  intros Hwf Hv v l offs R i t Hi Hcap Htup.
  destruct (emplace_pos_rep L Hwf Hv v l offs R i t Hi Hcap Htup) as (R' & _ & _).
  assert (Hlt : 0 <= Z.of_nat i < Z.of_nat (length (linsert i t l))) by (rewrite linsert_length by exact Hi; lia).
  assert (H : Rep L (fst (erase L (fst (emplace_pos L v (Z.of_nat i) t)) (Z.of_nat i)))
                (remove_range (Z.to_nat (Z.of_nat i)) (S (Z.to_nat (Z.of_nat i))) (linsert i t l))).
  { destruct (all_triv L) eqn:Ht; [exact (erase_rep L Hwf Ht _ _ _ R' Hlt)|exact (erase_rep_nt L Hwf _ _ _ Ht R' Hlt (or_introl Hv))]. }
  rewrite Nat2Z.id, remove_range_linsert in H by exact Hi. exact H.
Qed.

Theorem emplace_then_erase L : wf_plist L = true -> has_varying L = false -> all_triv L = true ->
  forall v l offs, RepO L v l offs ->
  forall i t, (i <= length l)%nat -> Z.of_nat (length l) < v_cap v ->
  tuple_ok L (fixed_counts L (v_fixed v)) 0 t ->
  Rep L (fst (erase L (fst (emplace_pos L v (Z.of_nat i) t)) (Z.of_nat i))) l.
Proof. intros Hwf Hv _. exact (emplace_then_erase_fixed L Hwf Hv). Qed.
