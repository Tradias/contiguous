(* NtLedger.v — C07 for EVERY parameter list and EVERY operation (erase with a tail included):
   the allocation ledger only sees allocate / deallocate events; constructions, destructions,
   relocations through constructors and byte copies are transparent to it, and no operation
   other than a growing reserve changes which blocks the vector owns (StableThm.quiet). *)
From Coq Require Import ZArith Lia List.
From Cntgs Require Import ListAux Layout Vector StableThm WorldThm.
Import ListNotations.
Local Open Scope Z_scope.

Lemma same_blocks_of L v v' : same_shape v v' -> blocks_of L v' = blocks_of L v.
Proof. intros (_ & A1 & A2 & A3 & _ & _ & A4 & A5). unfold blocks_of. rewrite A1, A2, A3, A4, A5. reflexivity. Qed.

Lemma same_blocks_ids L v v' nb : same_shape v v' -> ids_ok L v nb -> ids_ok L v' nb.
Proof. intros (_ & A1 & _ & _ & _ & _ & A4 & _) H. unfold ids_ok. rewrite A1, A4. exact H. Qed.

Lemma insert_into_no_alloc mv destr L v bid junk : no_alloc (snd (insert_into mv destr L v bid junk)).
Proof. apply insert_into_frame. Qed.

Lemma ledger_drop_mid e1 : no_alloc e1 -> forall a live r, ledger live (a ++ e1 ++ r) = ledger live (a ++ r).
Proof.
  intros H1 a live r. rewrite !(ledger_bind a). destruct (ledger live a) as [live1|]; [|reflexivity].
  rewrite ledger_bind, (no_alloc_ledger e1 live1 H1). reflexivity.
Qed.

Lemma reserve_ledger_core L v n u nb m : ids_ok L v nb ->
  let tab := has_varying L in
  let ea := EAlloc (v_aid v) (SA L) u nb :: (if tab then [EAlloc (v_aid v) 8 n (S nb)] else []) in
  let v' := {| v_cap := n; v_bid := Some nb; v_units := u; v_aid := v_aid v; v_mem := m;
               v_fixed := v_fixed v; v_count := v_count v; v_stride := v_stride v;
               v_tbl := if tab then tbl_relocate (v_tbl v) n (S nb) else v_tbl v;
               v_last := v_last v |} in
  ledger (blocks_of L v) (ea ++ (if tab then dealloc_tbl L v else []) ++ dealloc_mem L v) = Some (blocks_of L v') /\
  ids_ok L v' (S (S nb)).
Proof.
  intros Hid tab ea v'. pose proof Hid as (_ & _ & Hne & Hnt). split.
  - (* the new blocks are obtained, then the old ones returned, table first *)
    replace ea with (map ealloc (blocks_of L v'))
      by (unfold ea, v', blocks_of, tab; cbn [v_bid v_aid v_units v_tbl]; destruct (has_varying L); reflexivity).
    replace (if tab then dealloc_tbl L v else []) with (dealloc_tbl L v)
      by (unfold tab, dealloc_tbl; destruct (has_varying L); [|rewrite (Hnt eq_refl)]; reflexivity).
    rewrite (deallocs_blocks L v Hnt). apply ledger_replace.
    (* the old ids are distinct and below nb, the new ones are nb and S nb *)
    assert (Hnew : map fst (blocks_of L v') = nb :: (if tab then [S nb] else [])).
    { unfold v', blocks_of, tab. cbn [v_bid v_tbl]. destruct (has_varying L); reflexivity. }
    rewrite map_app, Hnew. apply NoDup_app_.
    + apply blocks_of_nodup. exact Hne.
    + destruct tab; repeat constructor; cbn [In]; lia.
    + intros b Hb. apply (blocks_of_lt L v nb Hid) in Hb. destruct tab; cbn [In]; lia.
  - unfold ids_ok, v', tab. cbn [v_bid v_tbl].
    destruct (has_varying L); [cbn [tbl_relocate t_bid]|rewrite (Hnt eq_refl)]; repeat split; try discriminate.
    + intros b [= <-]. lia.
    + intros tb [= <-]. lia.
    + intros b tb [= <-] [= <-]. lia.
    + intros b [= <-]. lia.
Qed.

Section LedgerNt.
  Variable L : list param.

  Lemma quiet_step v r nb : quiet v r -> ids_ok L v nb ->
    ledger (blocks_of L v) (snd r) = Some (blocks_of L (fst r)) /\ ids_ok L (fst r) nb.
  Proof.
    intros [He Hs] Hid. split; [|exact (same_blocks_ids L v (fst r) nb Hs Hid)].
    rewrite (same_blocks_of L v (fst r) Hs). apply no_alloc_ledger. exact He.
  Qed.

  (* WorldThm.lstep / lrun in full: LifeHist.v has a pair of the same names (the same functions) *)
  Lemma lstep_ledger_nt junk v nb o :
    ids_ok L v nb ->
    let '((v', nb'), e) := WorldThm.lstep L junk (v, nb) o in
    ledger (blocks_of L v) e = Some (blocks_of L v') /\ ids_ok L v' nb'.
  Proof.
    intros Hid. destruct o as [t| |i|i j| |n b]; cbn [WorldThm.lstep].
    - pose proof (quiet_step v _ nb (emplace_back_quiet L v t) Hid) as H. destruct (emplace_back L v t). exact H.
    - pose proof (quiet_step v _ nb (pop_back_quiet L v) Hid) as H. destruct (pop_back L v). exact H.
    - pose proof (quiet_step v _ nb (erase_quiet L v i) Hid) as H. destruct (erase L v i). exact H.
    - pose proof (quiet_step v _ nb (erase_range_quiet L v i j) Hid) as H. destruct (erase_range L v i j). exact H.
    - pose proof (quiet_step v _ nb (clear_quiet L v) Hid) as H. destruct (clear L v). exact H.
    - unfold reserve. destruct (v_cap v <? n).
      + pose proof (insert_into_no_alloc true true L v nb junk) as Hna.
        destruct (insert_into true true L v nb junk) as [[v1 m] e1]. cbn [snd] in Hna.
        rewrite (ledger_drop_mid e1 Hna). exact (reserve_ledger_core L v n _ nb m Hid).
      + cbn [ledger]. split; [reflexivity|]. eapply ids_ok_mono; [exact Hid|lia].
  Qed.

  Theorem lrun_ledger_nt junk h : forall v nb,
    ids_ok L v nb ->
    let '((v', nb'), e) := WorldThm.lrun L junk (v, nb) h in
    ledger (blocks_of L v) e = Some (blocks_of L v') /\ ids_ok L v' nb'.
  Proof.
    induction h as [|o h IH]; intros v nb Hid; cbn [WorldThm.lrun]; [split; [reflexivity|exact Hid]|].
    pose proof (lstep_ledger_nt junk v nb o Hid) as Hs.
    destruct (WorldThm.lstep L junk (v, nb) o) as [[v1 nb1] e1]. destruct Hs as [Hs1 Hs2].
    specialize (IH v1 nb1 Hs2). destruct (WorldThm.lrun L junk (v1, nb1) h) as [[v2 nb2] e2]. destruct IH as [IH1 IH2].
    split; [|exact IH2]. rewrite (ledger_app _ e1 e2 _ Hs1). exact IH1.
  Qed.

  (* C07: construction, any history, destruction: every block was requested once and returned
     once, with the allocator, unit size and count it was requested with *)
  Theorem whole_life_ledger_nt cap budget fixed aid junk h :
    let '(v0, e0) := mkvec L cap budget fixed aid junk 0%nat 1%nat in
    let '((v, nb), e) := WorldThm.lrun L junk (v0, 2%nat) h in
    ledger [] (e0 ++ e ++ destroy L v) = Some [].
  Proof.
    pose proof (mkvec_ledger L cap budget fixed aid junk 0%nat 1%nat ltac:(lia)) as H0.
    pose proof (mkvec_ids_ok L cap budget fixed aid junk 0%nat 1%nat 2%nat ltac:(lia) ltac:(lia) ltac:(lia)) as Hid0.
    destruct (mkvec L cap budget fixed aid junk 0%nat 1%nat) as [v0 e0]. cbn [fst snd] in *.
    pose proof (lrun_ledger_nt junk h v0 2%nat Hid0) as Hr.
    destruct (WorldThm.lrun L junk (v0, 2%nat) h) as [[v nb] e]. destruct Hr as [Hr1 (Hb & Htb & Hne & Hnt)].
    rewrite (ledger_app _ e0 _ _ H0). rewrite (ledger_app _ e _ _ Hr1).
    apply destroy_ledger; auto.
  Qed.
End LedgerNt.
