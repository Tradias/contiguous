(* AssignThm.v — assignment and swap between two element references in different vectors
   transfer exactly the tuple (C11).  Every step of ElementTraits::assign / swap - the memmove of
   a run [begin K, end INDEX) as well as the object-wise treatment of a MANUAL field - handles a
   block of bytes at the same offset in both elements (both start storage-aligned and have equal
   field sizes, so their layouts are translates of each other).  The blocks of the steps are
   disjoint, ascend, cover every field and stay inside the element, so a step reads what no
   earlier step has written.  Section Transfer holds this argument for every run table and step
   function; assignment (copy and move form) is derived here, swap in SwapThm.v; MoveThm.v
   states the move form. *)
From Coq Require Import ZArith List Bool Lia.
From Cntgs Require Import BaseLemmas Layout LayoutThm Mem MemLemmas Vector Proxy Spec Rep ElemLemmas RunsThm ElemThm.
Import ListNotations.
Local Open Scope Z_scope.

(* Two adjacent blocks at [a], filled one after the other from the blocks at [b] of the other
   memory ([G] applied to each byte; nothing written if [w] is off), are one block, provided the
   first step has left the second block at [b] alone. *)
Lemma block_app (G : Z -> Z) (w : bool) (mo m mo1 m1 m2 : mem) a b p q : 0 <= p -> 0 <= q ->
  (forall y, m1 y = if w && inr a p y then G (mo (y - a + b)) else m y) ->
  (forall z, ~ (b <= z < b + p) -> mo1 z = mo z) ->
  (forall y, m2 y = if w && inr (a + p) q y then G (mo1 (y - (a + p) + (b + p))) else m1 y) ->
  forall y, m2 y = if w && inr a (p + q) y then G (mo (y - a + b)) else m y.
Proof.
  intros Hp Hq H1 Ho H2 y. rewrite H2. destruct w; [|apply H1]. cbn [andb]. rewrite inr_app by assumption.
  destruct (inr (a + p) q y) eqn:E; [|rewrite orb_false_r; apply H1].
  apply inr_true in E. rewrite orb_true_r, Ho by lia. f_equal. f_equal. lia.
Qed.

(* memmove from the source's memory into the target's *)
Lemma copy_block x sa da n : m_same x = false ->
  let x' := wr_d x da (mread (m_s x) sa n) in
  m_same x' = false /\ m_s x' = m_s x /\
  forall y, m_d x' y = if inr da (Z.of_nat n) y then m_s x (y - da + sa) else m_d x y.
Proof. intros Hs. unfold wr_d. rewrite Hs. cbn [m_s m_d m_same]. repeat split. intros y. apply mwrite_mread_at. Qed.

Lemma swap_block x xa ya n : m_same x = false ->
  let x' := wr_d (wr_s x xa (mread (m_d x) ya n)) ya (mread (m_s x) xa n) in
  m_same x' = false /\
  (forall y, m_s x' y = if inr xa (Z.of_nat n) y then m_d x (y - xa + ya) else m_s x y) /\
  (forall y, m_d x' y = if inr ya (Z.of_nat n) y then m_s x (y - ya + xa) else m_d x y).
Proof.
  intros Hs. unfold wr_d, wr_s. rewrite Hs. cbn [m_s m_d m_same]. repeat split; intros y; apply mwrite_mread_at.
Qed.

(* assign_all, swap_all and the object loops are folds of one step function *)
Fixpoint steps {K : Type} (one : mm -> K -> mm * list ev) (x : mm) (ks : list K) : mm * list ev :=
  match ks with
  | [] => (x, [])
  | k :: ks' => let '(x1, e1) := one x k in let '(x2, e2) := steps one x1 ks' in (x2, e1 ++ e2)
  end.

Lemma assign_all_steps mv L sb db fls fld ks : forall x,
  assign_all mv L sb db fls fld x ks = steps (assign_one mv L sb db fls fld) x ks.
Proof.
  induction ks as [|k ks IH]; intros x; cbn [assign_all steps]; [reflexivity|].
  destruct (assign_one mv L sb db fls fld x k) as [x1 e1]. rewrite IH. reflexivity.
Qed.

Lemma swap_all_steps L xb yb flx fly ks : forall x,
  swap_all L xb yb flx fly x ks = steps (swap_one L xb yb flx fly) x ks.
Proof.
  induction ks as [|k ks IH]; intros x; cbn [swap_all steps]; [reflexivity|].
  destruct (swap_one L xb yb flx fly x k) as [x1 e1]. rewrite IH. reflexivity.
Qed.

Lemma steps_cons {K} (one : mm -> K -> mm * list ev) x k ks :
  steps one x (k :: ks) =
  (fst (steps one (fst (one x k)) ks), snd (one x k) ++ snd (steps one (fst (one x k)) ks)).
Proof. cbn [steps]. destruct (one x k) as [x1 e1]. cbn [fst snd]. destruct (steps one x1 ks) as [x2 e2]. reflexivity. Qed.

Lemma steps_inv {K} (I : mm -> Prop) (one : mm -> K -> mm * list ev) ks :
  (forall x k, In k ks -> I x -> I (fst (one x k))) -> forall x, I x -> I (fst (steps one x ks)).
Proof.
  induction ks as [|k ks IH]; intros H x Hx; [exact Hx|]. rewrite steps_cons. cbn [fst].
  apply IH; [intros x' k' Hk'; apply H; right; exact Hk'|]. apply H; [left; reflexivity|exact Hx].
Qed.

Lemma steps_rel {K} (Rl : mm -> mm -> Prop) (one : mm -> K -> mm * list ev) ks :
  (forall x y k, In k ks -> Rl x y -> Rl (fst (one x k)) (fst (one y k)) /\ snd (one x k) = snd (one y k)) ->
  forall x y, Rl x y ->
  Rl (fst (steps one x ks)) (fst (steps one y ks)) /\ snd (steps one x ks) = snd (steps one y ks).
Proof.
  induction ks as [|k ks IH]; intros H x y Hxy; [split; [exact Hxy|reflexivity]|].
  rewrite (steps_cons one x), (steps_cons one y). cbn [fst snd].
  destruct (H x y k (or_introl eq_refl) Hxy) as [H1 E1].
  destruct (IH (fun x' y' k' Hk' => H x' y' k' (or_intror Hk')) _ _ H1) as [H2 E2].
  split; [exact H2|]. rewrite E1, E2. reflexivity.
Qed.

Fixpoint addrs (sz sa da : Z) (n : nat) : list (Z * Z) :=
  match n with O => [] | S n' => (sa, da) :: addrs sz (sa + sz) (da + sz) n' end.

Lemma addrs_in sz : forall n sa da a b, In (a, b) (addrs sz sa da n) ->
  b - a = da - sa /\ (0 <= sz -> sa <= a /\ a + sz <= sa + Z.of_nat n * sz).
Proof.
  induction n as [|n IH]; intros sa da a b; cbn [addrs In]; [tauto|]. intros [E|H].
  - injection E as <- <-. split; [reflexivity|]. intros Hsz.
    pose proof (Z.mul_nonneg_nonneg (Z.of_nat n) sz ltac:(lia) Hsz). lia.
  - destruct (IH _ _ _ _ H) as [H1 H2]. split; [lia|]. intros Hsz. specialize (H2 Hsz). lia.
Qed.

(* A step function that moves one object from s to d and, if [w], writes [G v] to the s side for
   the d side's byte [v], moves the block of all [n] objects when folded over their addresses. *)
Lemma blocks_spec (one : mm -> Z * Z -> mm * list ev) sz (w : bool) (G : Z -> Z) : 0 <= sz ->
  (forall x sa da, m_same x = false ->
     let x' := fst (one x (sa, da)) in
     m_same x' = false /\
     (forall y, m_s x' y = if w && inr sa sz y then G (m_d x (y - sa + da)) else m_s x y) /\
     (forall y, m_d x' y = if inr da sz y then m_s x (y - da + sa) else m_d x y)) ->
  forall n x sa da, m_same x = false ->
  let x' := fst (steps one x (addrs sz sa da n)) in
  m_same x' = false /\
  (forall y, m_s x' y = if w && inr sa (Z.of_nat n * sz) y then G (m_d x (y - sa + da)) else m_s x y) /\
  (forall y, m_d x' y = if inr da (Z.of_nat n * sz) y then m_s x (y - da + sa) else m_d x y).
Proof.
  intros Hsz Hone. induction n as [|n IH]; intros x sa da Hs; cbn [addrs].
  - split; [exact Hs|]. split; intros y; rewrite inr_empty, ?andb_false_r by lia; reflexivity.
  - rewrite steps_cons. cbn [fst]. destruct (Hone x sa da Hs) as (M1 & S1 & D1). set (x1 := fst (one x (sa, da))) in *.
    destruct (IH x1 (sa + sz) (da + sz) M1) as (M2 & S2 & D2).
    assert (Hq : 0 <= Z.of_nat n * sz) by (apply Z.mul_nonneg_nonneg; lia).
    replace (Z.of_nat (S n) * sz) with (sz + Z.of_nat n * sz) by lia.
    split; [exact M2|]. split.
    + apply (block_app G w (m_d x) (m_s x) (m_d x1) (m_s x1) _ sa da sz _ Hsz Hq S1); [|exact S2].
      intros z Hz. rewrite D1, (proj2 (inr_false da sz z) Hz). reflexivity.
    + apply (block_app (fun v => v) true (m_s x) (m_d x) (m_s x1) (m_d x1) _ da sa sz _ Hsz Hq D1); [|exact D2].
      intros z Hz. rewrite S1, (proj2 (inr_false sa sz z) Hz), andb_false_r. reflexivity.
Qed.

(* the assignment of one object of a MANUAL field; assign_objs is its fold *)
Definition assign_obj (mv : bool) (p : param) (sb db : nat) (x : mm) (ad : Z * Z) : mm * list ev :=
  let '(sa, da) := ad in
  let x1 := wr_d x da (mread (m_s x) sa (Z.to_nat (psz p))) in
  (if mv && negb (m_same x && (sa =? da)) then wr_s x1 sa (moved_bytes (psz p)) else x1,
   [if mv then EMoveA db da (psz p) sb sa else ECopyA db da (psz p) sb sa]).

Lemma assign_objs_steps mv p sb db : forall n x sa da,
  assign_objs mv p sb db x sa da n = steps (assign_obj mv p sb db) x (addrs (psz p) sa da n).
Proof.
  induction n as [|n IH]; intros x sa da; cbn [assign_objs addrs steps assign_obj app]; [reflexivity|].
  rewrite IH. reflexivity.
Qed.

(* the copy form never writes to the source; the move form leaves a moved-from object (0xEE in
   the model) behind *)
Lemma assign_obj_spec mv p sb db x sa da : 0 <= psz p -> m_same x = false ->
  let x' := fst (assign_obj mv p sb db x (sa, da)) in
  m_same x' = false /\
  (forall y, m_s x' y = if mv && inr sa (psz p) y then 238 else m_s x y) /\
  (forall y, m_d x' y = if inr da (psz p) y then m_s x (y - da + sa) else m_d x y).
Proof.
  intros Hp Hs. cbn [assign_obj fst]. rewrite Hs. cbn [andb negb]. rewrite andb_true_r.
  destruct (copy_block x sa da (Z.to_nat (psz p)) Hs) as (M1 & S1 & D1). rewrite Z2Nat.id in D1 by exact Hp.
  set (x1 := wr_d x da _) in *. clearbody x1.
  destruct mv; cbn [andb]; [|rewrite S1; auto].
  unfold wr_s. rewrite M1. cbn [m_s m_d m_same]. split; [reflexivity|]. split; [|exact D1].
  intros y. rewrite mwrite_at. unfold moved_bytes. rewrite repeat_length, Z2Nat.id, S1 by exact Hp.
  destruct (inr sa (psz p) y) eqn:E; [|reflexivity]. apply inr_true in E.
  rewrite (nth_indep _ 0 238) by (rewrite repeat_length; lia). apply nth_repeat.
Qed.

(* number of bytes step [k] of the table [R] handles, as the code computes it from the field
   table [fl] of the element it reads *)
Definition fl_step_len (L : list param) (R : list ridx) (fl : list (Z * Z)) (k : nat) : Z :=
  match nth k R RSkip with
  | RSkip => 0
  | RManual => Z.of_nat (Z.to_nat (snd (nth k fl fld0))) * psz (nth k L pparam0)
  | REnd e => Z.of_nat (Z.to_nat (fend (nth e L pparam0) (nth e fl fld0) - fst (nth k fl fld0)))
  end.
Definition manual (R : list ridx) (k : nat) : bool := match nth k R RSkip with RManual => true | _ => false end.

(* one step of ElementTraits::assign<mv>, on any two field tables *)
Lemma assign_one_gen mv L sb db fls fld x k : 0 < psz (nth k L pparam0) -> m_same x = false ->
  let sa := fst (nth k fls fld0) in
  let da := fst (nth k fld fld0) in
  let n := fl_step_len L (runs_asg mv L) fls k in
  let x' := fst (assign_one mv L sb db fls fld x k) in
  m_same x' = false /\
  (forall y, m_s x' y = if mv && manual (runs_asg mv L) k && inr sa n y then 238 else m_s x y) /\
  (forall y, m_d x' y = if inr da n y then m_s x (y - da + sa) else m_d x y).
Proof.
  intros Hp Hs. apply Z.lt_le_incl in Hp. unfold assign_one, fl_step_len, manual.
  destruct (nth k (runs_asg mv L) RSkip) as [| |e]; cbv zeta; cbn [fst].
  - rewrite andb_false_r. split; [exact Hs|]. split; intros y; [|rewrite inr_empty by lia]; reflexivity.
  - rewrite assign_objs_steps, andb_true_r.
    exact (blocks_spec _ _ mv (fun _ => 238) Hp (fun x' a b => assign_obj_spec mv _ sb db x' a b Hp) _ x _ _ Hs).
  - rewrite andb_false_r. set (n := Z.to_nat _).
    destruct (copy_block x (fst (nth k fls fld0)) (fst (nth k fld fld0)) n Hs) as (H1 & H2 & H3). rewrite H2. auto.
Qed.

(* the copy form leaves the source's memory as it is (the same function, not only byte by byte) *)
Lemma assign_one_copy_src L sb db fls fld ms x k : m_same x = false /\ m_s x = ms ->
  let x' := fst (assign_one false L sb db fls fld x k) in m_same x' = false /\ m_s x' = ms.
Proof.
  intros H. unfold assign_one. destruct (nth k (runs_asg false L) RSkip); cbn [fst]; [exact H| |].
  - rewrite assign_objs_steps. apply steps_inv; [|exact H].
    intros x' [a b] _ [Hs Hm]. cbn [assign_obj andb fst]. unfold wr_d. rewrite Hs. split; [reflexivity|exact Hm].
  - destruct H as [Hs Hm]. unfold wr_d. rewrite Hs. split; [reflexivity|exact Hm].
Qed.

(* the fields of an element lie in order inside its extent, whether or not it starts aligned *)
Lemma place_from_in_order L : Forall wfp L -> forall pv cnts a, Forall (fun c => 0 <= c) cnts ->
  (length L <= length pv)%nat -> length cnts = length L -> forall k, (k < length L)%nat ->
  let A := fst (place_from L pv cnts a) in
  let fe j := nth j A 0 + nth j cnts 0 * psz (nth j L pparam0) in
  a <= nth k A 0 <= fe k /\ fe k <= snd (place_from L pv cnts a) /\
  forall e, (k < e < length L)%nat -> fe k <= nth e A 0.
Proof.
  induction 1 as [|p L [Hs Hal] HF IH]; intros pv cnts a Hc Hpv Hl k Hk; [cbn [length] in Hk; lia|].
  destruct pv as [|pt pv]; [cbn [length] in Hpv; lia|]. destruct cnts as [|c cnts]; [discriminate|].
  apply Forall_cons_iff in Hc. destruct Hc as [Hc0 Hc]. cbn [length] in *.
  rewrite place_from_cons. cbn [fst snd].
  pose proof (align_if_ge (pt <? pal p) (pal p) a (pow2_pos _ Hal)) as Ha.
  set (a' := align_if (pt <? pal p) (pal p) a) in *.
  assert (H0 : 0 <= c * psz p) by (apply Z.mul_nonneg_nonneg; lia).
  specialize (IH pv cnts (a' + c * psz p) Hc ltac:(lia) ltac:(lia)).
  destruct k as [|k]; cbn [nth].
  - split; [lia|]. split; [apply place_from_end_ge; assumption|].
    intros [|e] He; [lia|]. cbn [nth]. apply (IH e). lia.
  - destruct (IH k ltac:(lia)) as (I1 & I2 & I3). split; [lia|]. split; [exact I2|].
    intros [|e] He; [lia|]. cbn [nth]. apply I3. lia.
Qed.

(* number of bytes step [k] of the table [R] handles, for fields at [A] holding [cn] objects; on a
   reference to a stored tuple this is what the code computes (fl_step_len_ref) *)
Definition step_len (R : list ridx) (L : list param) (cn A : list Z) (k : nat) : Z :=
  match nth k R RSkip with
  | RSkip => 0
  | RManual => nth k cn 0 * psz (nth k L pparam0)
  | REnd e => nth e A 0 + nth e cn 0 * psz (nth e L pparam0) - nth k A 0
  end.
(* the block of step [k] in an element whose fields start at [B] *)
Definition in_step (R : list ridx) (L : list param) (cn A B : list Z) (k : nat) (y : Z) : bool :=
  inr (nth k B 0) (step_len R L cn A k) y.

Section Transfer.
  Variable L : list param.
  Hypothesis Hwf : wf_plist L = true.
  Variables (t : tuple) (fc : list Z).
  Hypothesis Ht : tuple_ok L fc 0 t.
  Variables (xa ya : Z).

  Let cn := cnts_of t.
  Let Ax := fst (place L cn xa).
  Let Ay := fst (place L cn ya).

  Lemma fields_in_order k e : (k <= e < length L)%nat ->
    xa <= nth k Ax 0 <= nth e Ax 0 /\ 0 <= nth k cn 0 * psz (nth k L pparam0) /\
    nth k Ax 0 + nth k cn 0 * psz (nth k L pparam0) <= nth e Ax 0 + nth e cn 0 * psz (nth e L pparam0) <= elem_end L xa t /\
    ((k < e)%nat -> nth k Ax 0 + nth k cn 0 * psz (nth k L pparam0) <= nth e Ax 0).
  Proof.
    intros Hke. unfold Ax, cn, elem_end, place.
    pose proof (place_from_in_order L (wf_plist_Forall L Hwf) (prevs L) (cnts_of t) xa (cnts_of_nonneg t)
                  (prevs_length_le L) (cnts_length L t fc Ht)) as H. cbv zeta in H.
    destruct (H k ltac:(lia)) as (K1 & K2 & K3). destruct (H e ltac:(lia)) as (E1 & E2 & _). clear H.
    destruct (Nat.eq_dec k e) as [->|Hne]; [lia|]. specialize (K3 e ltac:(lia)). lia.
  Qed.

  Variable pred : param -> bool.
  Let R := runs pred false false L.

  Lemma step_extent k : (k < length L)%nat ->
    xa <= nth k Ax 0 /\ 0 <= step_len R L cn Ax k /\ nth k Ax 0 + step_len R L cn Ax k <= elem_end L xa t.
  Proof.
    intros Hk. unfold step_len. destruct (nth k R RSkip) as [| |e] eqn:E.
    1, 2: pose proof (fields_in_order k k ltac:(lia)); lia.
    pose proof (fields_in_order k e (runs_bounds _ _ _ L k e E)). lia.
  Qed.

  Lemma fl_step_len_ref k : (k < length L)%nat -> fl_step_len L R (ref_fl L t xa) k = step_len R L cn Ax k.
  Proof.
    intros Hk. pose proof (proj1 (proj2 (step_extent k Hk))) as Hlen. unfold fl_step_len, step_len in *.
    destruct (nth k R RSkip) as [| |e] eqn:E; [reflexivity| |].
    - rewrite (nth_fl L xa t fc Ht k Hk). cbn [snd]. rewrite Z2Nat.id by (rewrite nth_cnts_of; lia). reflexivity.
    - rewrite (nth_fl L xa t fc Ht k Hk), (nth_fl L xa t fc Ht e) by (pose proof (runs_bounds _ _ _ L k e E); lia).
      unfold fend. cbn [fst snd]. fold cn Ax. rewrite Z2Nat.id by exact Hlen. reflexivity.
  Qed.

  Hypothesis Hxa : 0 <= xa /\ (SA L | xa).
  Hypothesis Hya : 0 <= ya /\ (SA L | ya).

  Lemma Ay_Ax j : (j < length L)%nat -> nth j Ay 0 = nth j Ax 0 + (ya - xa).
  Proof.
    intros Hj. unfold Ay. rewrite <- (Zplus_minus xa ya) at 1.
    rewrite place_shift_fst by (exact Hwf || apply Z.divide_sub_r; tauto). fold Ax.
    rewrite (nth_indep _ 0 (0 + (ya - xa))), (map_nth (fun x => x + (ya - xa))); [reflexivity|].
    rewrite map_length. unfold Ax. rewrite (place_fst_length L cn xa (cnts_length L t fc Ht)). exact Hj.
  Qed.

  Let rx := in_step R L cn Ax Ax.
  Let ry := in_step R L cn Ax Ay.

  (* an earlier step has not touched what a later one reads *)
  Lemma step_below k' k y : (k' < k)%nat -> (k < length L)%nat -> rx k y = true -> rx k' y = false.
  Proof.
    intros Hlt Hk Hr. apply inr_true in Hr. apply inr_false. unfold step_len in *.
    destruct (nth k' R RSkip) as [| |e'] eqn:Ek'; [lia| |].
    - pose proof (fields_in_order k' k ltac:(lia)). lia.
    - pose proof (runs_bounds _ _ _ L k' e' Ek') as Hb.
      destruct (Nat.lt_ge_cases e' k) as [He|He].
      + pose proof (fields_in_order e' k ltac:(lia)). lia.
      + assert (Hskip : nth k R RSkip = RSkip) by (apply (proj2 (runs_separated pred false false L) k' e' Ek'); lia).
        rewrite Hskip in Hr. lia.
  Qed.

  Lemma steps_below (sx : nat -> Z -> bool) k y : (forall k' z, sx k' z = true -> rx k' z = true) ->
    (k < length L)%nat -> rx k y = true -> existsb (fun k' => sx k' y) (seq 0 k) = false.
  Proof.
    intros Hsx Hk Hr. destruct (existsb _ (seq 0 k)) eqn:E; [|reflexivity].
    apply existsb_exists in E. destruct E as (k' & Hin & Hr'). apply in_seq in Hin. apply Hsx in Hr'.
    rewrite (step_below k' k y) in Hr' by (exact Hr || lia). discriminate.
  Qed.

  Lemma field_in_steps j y : (j < length L)%nat ->
    nth j Ax 0 <= y < nth j Ax 0 + nth j cn 0 * psz (nth j L pparam0) ->
    existsb (fun k => rx k y) (seq 0 (length L)) = true.
  Proof.
    intros Hj Hy. apply existsb_exists.
    destruct (proj1 (proj2 (runs_structure pred false false L)) j Hj) as [Hm | (k & e & Hke & Hk)].
    - exists j. split; [apply in_seq; lia|]. apply inr_true. unfold step_len. fold R in Hm. rewrite Hm. exact Hy.
    - pose proof (runs_bounds _ _ _ L k e Hk) as Hb. exists k. split; [apply in_seq; lia|].
      apply inr_true. unfold step_len. fold R in Hk. rewrite Hk.
      pose proof (fields_in_order k j ltac:(lia)). pose proof (fields_in_order j e ltac:(lia)). lia.
  Qed.

  Lemma steps_outside y : ~ (xa <= y < elem_end L xa t) -> existsb (fun k => rx k y) (seq 0 (length L)) = false.
  Proof.
    intros Hy. destruct (existsb _ _) eqn:E; [|reflexivity].
    apply existsb_exists in E. destruct E as (k & Hk & Hr). apply in_seq in Hk. apply inr_true in Hr.
    pose proof (step_extent k ltac:(lia)). lia.
  Qed.

  Lemma step_shift k y : (k < length L)%nat -> ry k y = rx k (y - ya + xa).
  Proof.
    intros Hk. unfold ry, rx, in_step. rewrite (Ay_Ax k Hk), inr_shift. f_equal. lia.
  Qed.

  Lemma steps_shift m y : (m <= length L)%nat ->
    existsb (fun k => ry k y) (seq 0 m) = existsb (fun k => rx k (y - ya + xa)) (seq 0 m).
  Proof.
    intros Hm. induction m as [|m IH]; [reflexivity|].
    rewrite seq_S, !existsb_app. cbn [Nat.add existsb]. rewrite IH, (step_shift m y) by lia. reflexivity.
  Qed.

  (* [one] is a step function that moves the block of step [k] from the s side to the d side
     and, on the part [sx k] of the block, writes [G v] to the s side for the d side's byte [v] *)
  Section Steps.
    Variables (one : mm -> nat -> mm * list ev) (sx : nat -> Z -> bool) (G : Z -> Z).
    Hypothesis Hsx : forall k y, sx k y = true -> rx k y = true.
    Hypothesis Hone : forall x k, (k < length L)%nat -> m_same x = false ->
      let x' := fst (one x k) in
      m_same x' = false /\
      (forall y, m_s x' y = if sx k y then G (m_d x (y - xa + ya)) else m_s x y) /\
      (forall y, m_d x' y = if ry k y then m_s x (y - ya + xa) else m_d x y).
    Variables mx my : mem.

    (* the invariant of the loop: after the steps below k0 the d side holds the start memory [mx]
       of the s side, translated, on the blocks of these steps and its own start memory [my]
       elsewhere; the s side holds [G] of the translated [my] on their [sx] parts and [mx]
       elsewhere.  It survives step k0 because that step's block lies off all earlier blocks
       (steps_below), so what it reads is still start memory. *)
    Lemma transfer_all : forall m k0 x, (k0 + m <= length L)%nat -> m_same x = false ->
      (forall y, m_s x y = if existsb (fun k => sx k y) (seq 0 k0) then G (my (y - xa + ya)) else mx y) ->
      (forall y, m_d x y = if existsb (fun k => ry k y) (seq 0 k0) then mx (y - ya + xa) else my y) ->
      let x' := fst (steps one x (seq k0 m)) in
      (forall y, m_s x' y = if existsb (fun k => sx k y) (seq 0 (k0 + m)) then G (my (y - xa + ya)) else mx y) /\
      (forall y, m_d x' y = if existsb (fun k => ry k y) (seq 0 (k0 + m)) then mx (y - ya + xa) else my y).
    Proof.
      induction m as [|m IH]; intros k0 x Hk Hs HS HD; cbn [seq]; [rewrite Nat.add_0_r; split; assumption|].
      rewrite steps_cons, Nat.add_succ_r. cbn [fst].
      destruct (Hone x k0 ltac:(lia) Hs) as (M1 & S1 & D1).
      apply (IH (S k0) _ ltac:(lia) M1); intros y; rewrite seq_S, existsb_app; cbn [Nat.add existsb]; rewrite orb_false_r.
      - rewrite S1. destruct (sx k0 y) eqn:Er; [|rewrite orb_false_r; apply HS].
        (* what step k0 reads on the d side is still what was there at the start *)
        rewrite orb_true_r, HD, steps_shift, Z.add_simpl_r, Z.sub_add by lia.
        rewrite (steps_below rx k0 y (fun _ _ H => H) ltac:(lia) (Hsx _ _ Er)). reflexivity.
      - rewrite D1. destruct (ry k0 y) eqn:Er; [|rewrite orb_false_r; apply HD].
        rewrite orb_true_r, HS. rewrite step_shift in Er by lia. rewrite (steps_below sx k0 _ Hsx ltac:(lia) Er). reflexivity.
    Qed.

    Theorem transfer_elem : elem_at L mx xa t ->
      let x' := fst (steps one {| m_s := mx; m_d := my; m_same := false |} (seq 0 (length L))) in
      elem_at L (m_d x') ya t /\
      (forall y, ~ (ya <= y < ya + (elem_end L xa t - xa)) -> m_d x' y = my y) /\
      (forall y, m_s x' y = if existsb (fun k => sx k y) (seq 0 (length L)) then G (my (y - xa + ya)) else mx y).
    Proof.
      intros Hex.
      destruct (transfer_all (length L) 0 {| m_s := mx; m_d := my; m_same := false |} ltac:(lia) eq_refl
                  (fun _ => eq_refl) (fun _ => eq_refl)) as [HS HD].
      cbn [Nat.add] in HS, HD. cbv zeta. split; [|split; [|exact HS]].
      - apply (elem_at_transfer L t fc mx xa _ ya Hwf Ht Hex). intros j i Hj Hi. fold cn Ax Ay in Hi |- *.
        rewrite HD, steps_shift, (Ay_Ax j Hj) by lia.
        replace (nth j Ax 0 + (ya - xa) + i - ya + xa) with (nth j Ax 0 + i) by lia.
        rewrite (field_in_steps j) by (exact Hj || lia). reflexivity.
      - intros y Hy. rewrite HD, steps_shift, steps_outside by lia. reflexivity.
    Qed.
  End Steps.

  Theorem exchange_elems one t' fc' mx my : tuple_ok L fc' 0 t' -> cnts_of t' = cnts_of t ->
    (forall x k, (k < length L)%nat -> m_same x = false ->
       let x' := fst (one x k) in
       m_same x' = false /\
       (forall y, m_s x' y = if rx k y then m_d x (y - xa + ya) else m_s x y) /\
       (forall y, m_d x' y = if ry k y then m_s x (y - ya + xa) else m_d x y)) ->
    elem_at L mx xa t -> elem_at L my ya t' ->
    let x' := fst (steps one {| m_s := mx; m_d := my; m_same := false |} (seq 0 (length L))) in
    elem_at L (m_s x') xa t' /\ elem_at L (m_d x') ya t /\
    (forall y, ~ (xa <= y < xa + (elem_end L xa t - xa)) -> m_s x' y = mx y) /\
    (forall y, ~ (ya <= y < ya + (elem_end L xa t - xa)) -> m_d x' y = my y).
  Proof.
    intros Ht' Hcn' Hone Hex Hey.
    destruct (transfer_elem one rx (fun v => v) (fun _ _ H => H) Hone mx my Hex) as (H2 & H4 & HS).
    split; [|split; [exact H2|split; [|exact H4]]].
    - apply (elem_at_transfer L t' fc' my ya _ xa Hwf Ht' Hey). intros j i Hj Hi.
      rewrite Hcn' in Hi |- *. fold cn Ax Ay in Hi |- *.
      rewrite HS, (field_in_steps j) by (exact Hj || lia). f_equal. rewrite (Ay_Ax j Hj). lia.
    - intros y Hy. rewrite HS, steps_outside by lia. reflexivity.
  Qed.
End Transfer.

Lemma ref_fl_cnts L t t' a : cnts_of t' = cnts_of t -> ref_fl L t' a = ref_fl L t a.
Proof. intros H. unfold ref_fl. rewrite H. reflexivity. Qed.

Section AssignSteps.
  Variable L : list param.
  Hypothesis Hwf : wf_plist L = true.
  Variables (t t' : tuple) (fc : list Z).
  Hypothesis Ht : tuple_ok L fc 0 t.
  Hypothesis Hcn : cnts_of t' = cnts_of t.
  Variables (xa ya : Z).
  Hypothesis Hxa : 0 <= xa /\ (SA L | xa).
  Hypothesis Hya : 0 <= ya /\ (SA L | ya).
  Variables (mv : bool) (sb db : nat).

  Let cn := cnts_of t.
  Let Ax := fst (place L cn xa).
  Let Ay := fst (place L cn ya).
  Let R := runs_asg mv L.

  Lemma assign_one_spec x k : (k < length L)%nat -> m_same x = false ->
    let x' := fst (assign_one mv L sb db (ref_fl L t xa) (ref_fl L t' ya) x k) in
    m_same x' = false /\
    (forall y, m_s x' y = if mv && manual R k && in_step R L cn Ax Ax k y then 238 else m_s x y) /\
    (forall y, m_d x' y = if in_step R L cn Ax Ay k y then m_s x (y - ya + xa) else m_d x y).
  Proof.
    intros Hk Hs. rewrite (ref_fl_cnts L t t' ya Hcn).
    pose proof (assign_one_gen mv L sb db (ref_fl L t xa) (ref_fl L t ya) x k (psz_pos L Hwf k Hk) Hs) as H.
    cbv zeta in H. unfold runs_asg in H.
    rewrite (fl_step_len_ref L Hwf t fc Ht xa (tasg mv) k Hk), !(nth_fl L _ t fc Ht k Hk) in H. cbn [fst] in H.
    destruct H as (H1 & H2 & H3). split; [exact H1|]. split; [exact H2|].
    intros y. rewrite H3. unfold in_step. fold cn Ax Ay. destruct (inr _ _ y); [|reflexivity].
    f_equal. pose proof (Ay_Ax L Hwf t fc Ht xa ya Hxa Hya k Hk). fold cn Ax Ay in H. lia.
  Qed.

  (* the source is scribbled (moved-from objects, 0xEE in the model) exactly on the MANUAL fields
     of the move table *)
  Theorem ref_assign_spec mx my : elem_at L mx xa t ->
    let x' := fst (assign_all mv L sb db (ref_fl L t xa) (ref_fl L t' ya)
                              {| m_s := mx; m_d := my; m_same := false |} (seq 0 (length L))) in
    elem_at L (m_d x') ya t /\
    (forall y, ~ (ya <= y < ya + (elem_end L xa t - xa)) -> m_d x' y = my y) /\
    (forall y, m_s x' y = if existsb (fun k => mv && manual R k && in_step R L cn Ax Ax k y) (seq 0 (length L))
                          then 238 else mx y).
  Proof.
    rewrite assign_all_steps.
    exact (transfer_elem L Hwf t fc Ht xa ya (tasg mv) Hxa Hya _ (fun k y => mv && manual R k && in_step R L cn Ax Ax k y)
             (fun _ => 238) (fun k y H => proj2 (proj1 (andb_true_iff _ _) H)) assign_one_spec mx my).
  Qed.
End AssignSteps.

Section Assign.
  Variable L : list param.
  Hypothesis Hwf : wf_plist L = true.
  Variables (ts td : tuple) (fcs fcd : list Z).
  Hypothesis Hts : tuple_ok L fcs 0 ts.
  Hypothesis Htd : tuple_ok L fcd 0 td.
  Hypothesis Hcn : cnts_of td = cnts_of ts.          (* equal field sizes *)
  Variables (ms md : mem) (sa da : Z).
  Hypothesis Hsa : 0 <= sa /\ (SA L | sa).
  Hypothesis Hda : 0 <= da /\ (SA L | da).
  Hypothesis Hes : elem_at L ms sa ts.

  Let n := length L.
  Let fls := ref_fl L ts sa.
  Let fld := ref_fl L td da.

  (* target = source (copy form), the references in different vectors *)
  Theorem ref_assign_copy sb db :
    let x' := fst (assign_all false L sb db fls fld {| m_s := ms; m_d := md; m_same := false |} (seq 0 n)) in
    m_s x' = ms /\
    elem_at L (m_d x') da ts /\
    (forall y, ~ (da <= y < da + (elem_end L sa ts - sa)) -> m_d x' y = md y).
  Proof using Hwf Hts Htd Hcn Hsa Hda Hes.
    destruct (ref_assign_spec L Hwf ts td fcs Hts Hcn sa da Hsa Hda false sb db ms md Hes) as (H1 & H2 & _).
    split; [|split; [exact H1|exact H2]].
    rewrite assign_all_steps.
    exact (proj2 (steps_inv (fun x => m_same x = false /\ m_s x = ms) _ _
                    (fun x k _ => assign_one_copy_src L sb db fls fld ms x k)
                    {| m_s := ms; m_d := md; m_same := false |} (conj eq_refl eq_refl))).
  Qed.
End Assign.

(* field-wise assignment between single elements (Elem.assign_fl: FixedSize / plain lists) *)
From Cntgs Require Import Elem.
Lemma assign_fl_holds mv L sb db src d ts td fcs : wf_plist L = true ->
  tuple_ok L fcs 0 ts -> cnts_of td = cnts_of ts -> elem_holds L src ts -> elem_holds L d td ->
  elem_at L (snd (fst (assign_fl mv L false (e_mem src) (e_fl src) sb (e_mem d) (e_fl d) db))) 0 ts /\
  e_fl d = ref_fl L ts 0.
Proof.
  intros Hwf Hts Hcn [Hes Hfs] [_ Hfd]. unfold assign_fl. rewrite Hfs, Hfd.
  destruct (ref_assign_spec L Hwf ts td fcs Hts Hcn 0 0 (conj (Z.le_refl 0) (Z.divide_0_r _))
              (conj (Z.le_refl 0) (Z.divide_0_r _)) mv sb db (e_mem src) (e_mem d) Hes) as (H & _).
  destruct (assign_all mv L sb db (ref_fl L ts 0) (ref_fl L td 0) _ (seq 0 (length L))) as [x evs].
  split; [exact H|]. apply ref_fl_cnts. exact Hcn.
Qed.

Theorem elem_copy_assign_fieldwise_spec L : wf_plist L = true ->
  forall pocca ae d src ts td fcs fcd junk nb,
  tuple_ok L fcs 0 ts -> tuple_ok L fcd 0 td -> cnts_of td = cnts_of ts ->
  elem_holds L src ts -> elem_holds L d td ->
  (fixed_or_plain L && (negb pocca || ae) && match e_bid d with Some _ => true | None => false end) = true ->
  let '(d', evs, nb') := elem_copy_assign pocca ae L d src junk nb in
  elem_holds L d' ts /\ e_bid d' = e_bid d /\ e_units d' = e_units d /\
  e_aid d' = (if pocca then e_aid src else e_aid d) /\ nb' = nb.
Proof.
  intros Hwf pocca ae d src ts td fcs fcd junk nb Hts Htd Hcn Hs Hd Hpath.
  unfold elem_copy_assign. rewrite Hpath.
  destruct (assign_fl_holds false L (bidn (e_bid src)) (bidn (e_bid d)) src d ts td fcs Hwf Hts Hcn Hs Hd) as [H1 H2].
  destruct (assign_fl false L false _ _ _ _ _ _) as [[ms md] evs]. repeat split; assumption.
Qed.
