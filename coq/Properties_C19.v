(* C19 — read-only use from several threads is race-free (PARTIAL).
   Proved: for every parameter list, every state of the shared vectors, any number of
   threads, any programs made of the const operations the property names (queries, element
   access, iteration, comparison, copying the vector, constructing an element from a
   reference) and EVERY interleaving of their memory accesses: no two accesses of different
   threads conflict.  The proof rests on two facts about the footprints, which are defined
   from the model's own functions (eaddr, load, vsize, consumption): a const operation reads
   only the shared state and writes only memory its own thread obtained during the operation.
   Every location read by iterating, comparing or copying vector s carries the tag s
   (C19_distinct_vectors_have_disjoint_locations states this for Race.all_reads).
   Tie of the footprints to the code (checked on every run): the vector object, its data
   block and its address table are write-protected (mprotect) and the whole catalogue of
   const operations is executed, single threaded and from 4 / 16 threads; any store into the
   shared state is a SIGSEGV with the operation as replay.
   NOT exhibited by the model: compiler / hardware memory model, the allocator's own
   synchronisation (ThreadSanitizer run in the thorough tier as supporting evidence only). *)
From Coq Require Import ZArith List.
From Cntgs Require Import Layout Vector Race RaceThm.
Import ListNotations.
Local Open Scope Z_scope.

Theorem C19_const_operations_never_conflict : forall L vs progs tr,
  from_programs L vs progs tr ->
  forall x y, In x tr -> In y tr -> ~ conflict x y.
Proof. exact const_operations_never_conflict. Qed.
Print Assumptions C19_const_operations_never_conflict.

Theorem C19_reads_touch_only_shared_state : forall L vs c,
  Forall (fun l => is_priv l = false) (reads L vs c).
Proof. exact reads_shared. Qed.
Print Assumptions C19_reads_touch_only_shared_state.

Theorem C19_writes_touch_only_thread_private_memory : forall L vs tid c,
  Forall (fun l => exists k, l = LPriv tid k) (writes L vs tid c).
Proof. exact writes_private. Qed.
Print Assumptions C19_writes_touch_only_thread_private_memory.

Theorem C19_distinct_vectors_have_disjoint_locations : forall L v s,
  Forall (fun l => loc_of l = Some s) (all_reads L v s).
Proof. exact all_reads_own. Qed.
Print Assumptions C19_distinct_vectors_have_disjoint_locations.

(* non-vacuity: two threads, one copying vector 0 and one iterating it: a non-empty trace that
   stems from these programs exists (the vector is empty, so the trace holds reads only) *)
Example C19_nonvacuous :
  let L := [ {| pk := Plain; psz := 4; pal := 1; pty := TUInt |} ] in
  let vs := fun _ : nat => vec0 in
  let progs := fun t : nat => if Nat.eqb t 0 then [CCopy 0] else [CIterate 0] in
  let tr := accesses L vs 1 (CIterate 0) ++ accesses L vs 0 (CCopy 0) in
  from_programs L vs progs tr /\ tr <> [].
Proof.
  cbv zeta. split.
  - intros x Hx. apply in_app_or in Hx. destruct Hx as [Hx|Hx].
    + assert (E : a_tid x = 1%nat).
      { unfold accesses in Hx. apply in_app_or in Hx. destruct Hx as [Hx|Hx]; apply in_map_iff in Hx;
        destruct Hx as (l & <- & _); reflexivity. }
      rewrite E. exists (CIterate 0). split; [left; reflexivity|exact Hx].
    + assert (E : a_tid x = 0%nat).
      { unfold accesses in Hx. apply in_app_or in Hx. destruct Hx as [Hx|Hx]; apply in_map_iff in Hx;
        destruct Hx as (l & <- & _); reflexivity. }
      rewrite E. exists (CCopy 0). split; [left; reflexivity|exact Hx].
  - vm_compute. discriminate.
Qed.
