(* C05 — tight packing: padding only where alignment demands it. *)
From Coq Require Import ZArith List.
From Cntgs Require Import Base BaseLemmas Layout LayoutThm Mem Vector Spec Rep EsizeThm Refine TightThm NtRefine
     World Footprint.
Import ListNotations.
Local Open Scope Z_scope.

(* Each field starts at the LOWEST suitably aligned address after the previous field
   (the first one after the element's start): where the library skips the alignment step
   because the compile-time trailing alignment already guarantees it, "skipped" and
   "lowest aligned address" coincide. *)
Theorem C05_fields_tightly_packed : forall L cnts a,
  wf_plist L = true -> Forall2 cnt_ok L cnts -> 0 <= a -> (SA L | a) ->
  tight_from a L cnts (fst (place L cnts a)).
Proof. exact place_tight. Qed.
Print Assumptions C05_fields_tightly_packed.

Theorem C05_align_up_is_least : forall x a y, 0 < a -> (a | y) -> x <= y ->
  (a | align_up x a) /\ x <= align_up x a <= y.
Proof.
  intros x a y Ha Hd Hxy. split; [apply align_up_div; auto|].
  split; [apply align_up_ge; auto|apply align_up_least; auto].
Qed.
Print Assumptions C05_align_up_is_least.

(* exact footprint, lists without VaryingSize parameter: an element occupies exactly the size the
   library computes, and the stride is the least multiple of the storage alignment >= it:
   a full vector uses stride * N bytes, nothing is wasted *)
Theorem C05_fixed_element_size_exact : forall L fixed t a,
  wf_plist L = true -> has_varying L = false ->
  tuple_ok L (fixed_counts L fixed) 0 t -> 0 <= a -> (SA L | a) ->
  elem_end L a t = a + fst (esize L fixed) /\
  snd (esize L fixed) = align_up (fst (esize L fixed)) (SA L).
Proof. exact esize_exact. Qed.
Print Assumptions C05_fixed_element_size_exact.

(* elements too are packed tightly: the next element starts at the least storage-aligned
   address at or after the end of the previous one *)
Theorem C05_elements_tightly_packed : forall L cnts a,
  wf_plist L = true -> Forall2 cnt_ok L cnts -> 0 <= a -> (SA L | a) ->
  let e := snd (place L cnts a) in
  (SA L | first_align L e) /\ e <= first_align L e /\ first_align L e = align_up e (SA L).
Proof. exact first_align_end. Qed.
Print Assumptions C05_elements_tightly_packed.

(* HISTORY level: in every represented state element i starts exactly at
   align_for_first_parameter(end of element i-1) - element 0 at the start of the block -
   and data_end() is the end of the last element or the aligned address behind it ... *)
Theorem C05_represented_states_are_tightly_packed : forall L v l, wf_plist L = true -> Rep L v l ->
  (forall i, (i < length l)%nat -> eaddr L v (Z.of_nat i) = first_align L (prev_end L v l i)) /\
  (dend L v = prev_end L v l (length l) \/ dend L v = first_align L (prev_end L v l (length l))).
Proof. exact rep_positions_tight. Qed.
Print Assumptions C05_represented_states_are_tightly_packed.

(* ... hence after EVERY valid history of emplace_back / pop_back / erase / erase(first,last) /
   clear / reserve from construction (trivially relocatable value types): no operation
   leaves a gap between two elements, whatever was erased before whatever was emplaced *)
Theorem C05_every_history_tightly_packed : forall L cap budget fixed aid junk bid tbid h,
  wf_plist L = true -> all_triv L = true -> 0 <= cap -> Forall (fun c => 0 <= c) fixed ->
  let v0 := fst (mkvec L cap budget fixed aid junk bid tbid) in
  let s0 := {| s_cap := cap; s_elems := [] |} in
  shist_valid L (fixed_counts L fixed) s0 h ->
  let v := vrun L junk v0 h in
  let l := s_elems (srun s0 h) in
  (forall i, (i < length l)%nat -> eaddr L v (Z.of_nat i) = first_align L (prev_end L v l i)) /\
  (dend L v = prev_end L v l (length l) \/ dend L v = first_align L (prev_end L v l (length l))).
Proof. exact tight_every_history. Qed.
Print Assumptions C05_every_history_tightly_packed.

(* ... and for EVERY well-formed list, non-trivial value types included (erase with elements
   behind the erased ones only on trivially relocatable lists and on lists without a
   VaryingSize parameter, NtRefine.nt_hist_okx) *)
Theorem C05_every_history_tightly_packed_every_list : forall L cap budget fixed aid junk bid tbid h,
  wf_plist L = true -> 0 <= cap -> Forall (fun c => 0 <= c) fixed ->
  let v0 := fst (mkvec L cap budget fixed aid junk bid tbid) in
  let s0 := {| s_cap := cap; s_elems := [] |} in
  shist_valid L (fixed_counts L fixed) s0 h -> nt_hist_okx L s0 h ->
  let v := vrun L junk v0 h in
  let l := s_elems (srun s0 h) in
  (forall i, (i < length l)%nat -> eaddr L v (Z.of_nat i) = first_align L (prev_end L v l i)) /\
  (dend L v = prev_end L v l (length l) \/ dend L v = first_align L (prev_end L v l (length l))).
Proof. exact tight_every_history_nt. Qed.
Print Assumptions C05_every_history_tightly_packed_every_list.

(* ---------- footprint of the operations that (re)allocate: no more than before, than the
   source, or than a fresh vector of the same capacity and budget ---------- *)
(* reserve beyond capacity (lists with a VaryingSize parameter): exactly what a fresh vector of
   that capacity, byte budget and fixed sizes consumes; within capacity: nothing changes *)
Theorem C05_reserve_consumes_what_a_fresh_vector_consumes : forall L v n b junk bid tbid aid junk' bid' tbid',
  has_varying L = true -> v_cap v < n ->
  consumption L (fst (reserve L v n b junk bid tbid)) =
  consumption L (fst (mkvec L n b (v_fixed v) aid junk' bid' tbid')).
Proof. exact reserve_footprint_varying. Qed.
Print Assumptions C05_reserve_consumes_what_a_fresh_vector_consumes.

(* ... and for lists WITHOUT VaryingSize parameter (the grow formula differs from the constructor's
   by the padding behind the last element; both round to the same number of storage units) *)
Theorem C05_reserve_consumes_what_a_fresh_vector_consumes_fixed : forall L v n junk bid tbid aid junk' bid' tbid',
  wf_plist L = true -> has_varying L = false -> Forall (fun c => 0 <= c) (fixed_counts L (v_fixed v)) ->
  v_stride v = snd (esize L (v_fixed v)) -> 0 <= v_cap v < n ->
  consumption L (fst (reserve L v n 0 junk bid tbid)) =
  consumption L (fst (mkvec L n 0 (v_fixed v) aid junk' bid' tbid')).
Proof. exact reserve_footprint_fixed. Qed.
Print Assumptions C05_reserve_consumes_what_a_fresh_vector_consumes_fixed.

Theorem C05_reserve_within_capacity_keeps_the_footprint : forall L v n b junk bid tbid, n <= v_cap v ->
  consumption L (fst (reserve L v n b junk bid tbid)) = consumption L v.
Proof. exact reserve_within_capacity_footprint. Qed.
Print Assumptions C05_reserve_within_capacity_keeps_the_footprint.

(* copy construction, copy assignment, stealing move assignment: what the source consumes *)
Theorem C05_copies_consume_what_the_source_consumes : forall K L d src junk nb,
  consumption L (fst (fst (fst (copy_ctor K L src junk nb)))) = consumption L src /\
  consumption L (fst (fst (fst (copy_assign K L d src junk nb)))) = consumption L src.
Proof. exact copy_footprint. Qed.
Print Assumptions C05_copies_consume_what_the_source_consumes.

Theorem C05_stealing_move_takes_over_the_footprint : forall K L d src,
  consumption L (fst (fst (steal K L d src))) = consumption L src.
Proof. exact steal_footprint. Qed.
Print Assumptions C05_stealing_move_takes_over_the_footprint.

(* the full clause is FALSE of the faithful model: element-wise move assignment into a smaller
   vector requests SA times the source's consumption (known finding move-assign-units) *)
Theorem C05_move_assignment_footprint_refuted :
  let d := fst (mkvec fpL 1 0 [] 1 (mfill 170) 0%nat 1%nat) in
  let src := fst (mkvec fpL 2 0 [] 2 (mfill 170) 2%nat 3%nat) in
  let d' := fst (fst (fst (move_assign fpK fpL d src (mfill 170) 4%nat))) in
  consumption fpL d = 8 /\ consumption fpL src = 16 /\
  consumption fpL (fst (mkvec fpL (v_cap src) 0 [] 1 (mfill 170) 5%nat 6%nat)) = 16 /\
  consumption fpL d' = 128.
Proof. exact move_assign_footprint_refuted. Qed.
Print Assumptions C05_move_assignment_footprint_refuted.
