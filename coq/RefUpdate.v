(* RefUpdate.v — assignment and swap through element references, at the level of the abstract
   list (C11).  In every represented state (RepO), for elements of equal field sizes, v[i] = v[j]
   represents the list with element i replaced by element j and swap(v[i], v[j]) the list with
   the two exchanged, at the same offsets; likewise between two vectors; self-assignment keeps
   the list.  Sequences of such swaps (std::reverse, std::rotate, std::swap_ranges) represent
   the list with the same exchanges applied; what these do to a list is computed position by
   position. *)
From Coq Require Import ZArith List Bool Lia.
From Cntgs Require Import ListAux Layout Vector Proxy Spec Rep Ordered Refine ElemThm CmpContent AssignThm SwapThm
     SameVec World.
Import ListNotations.
Local Open Scope Z_scope.

(* ref_assign and ref_swap return ((vector of the first reference, vector of the second), events):
   for an assignment the target and the source *)
Lemma ref_assign_fst mv L same vd i vs j :
  fst (ref_assign mv L same vd i vs j) =
  let x := fst (assign_all mv L (bidn (v_bid vs)) (bidn (v_bid vd)) (vfl L vs j) (vfl L vd i)
                           {| m_s := v_mem vs; m_d := v_mem vd; m_same := same |} (seq 0 (length L))) in
  (set_mem vd (m_d x), set_mem vs (m_s x)).
Proof. unfold ref_assign. destruct (assign_all _ _ _ _ _ _ _ _) as [x evs]. reflexivity. Qed.

Lemma ref_swap_fst L same va i vb j :
  fst (ref_swap L same va i vb j) =
  let x := fst (swap_all L (bidn (v_bid vb)) (bidn (v_bid va)) (vfl L vb j) (vfl L va i)
                         {| m_s := v_mem vb; m_d := v_mem va; m_same := same |} (seq 0 (length L))) in
  (set_mem va (m_d x), set_mem vb (m_s x)).
Proof. unfold ref_swap. destruct (swap_all _ _ _ _ _ _ _) as [x evs]. reflexivity. Qed.

Section Shape.
  Variable L : list param.
  Hypothesis Hwf : wf_plist L = true.

  (* two lists of tuples with the same field sizes, position by position (StableThm.same_shape is
     a relation on vectors) *)
  Definition same_shape (l l' : list tuple) : Prop := Forall2 (fun t t' => cnts_of t' = cnts_of t) l l'.

  Lemma eo_same_shape : forall offs lo l l' hi, same_shape l l' ->
    elems_ordered L lo offs l hi -> elems_ordered L lo offs l' hi.
  Proof.
    induction offs as [|a offs IH]; intros lo l l' hi Hs H; destruct l as [|t l]; cbn [elems_ordered] in H; try contradiction.
    - inversion Hs; subst. exact H.
    - inversion Hs as [|? t' ? l'' Ht Hr]; subst. cbn [elems_ordered].
      destruct H as (H1 & H2 & H3). repeat split; auto. rewrite (elem_end_cnts L a t t' Ht). eapply IH; eauto.
  Qed.

  Lemma et_same_shape : forall offs lo l l' hi, same_shape l l' ->
    elems_tight L lo offs l hi -> elems_tight L lo offs l' hi.
  Proof.
    induction offs as [|a offs IH]; intros lo l l' hi Hs H; destruct l as [|t l]; cbn [elems_tight] in H; try contradiction.
    - inversion Hs; subst. exact H.
    - inversion Hs as [|? t' ? l'' Ht Hr]; subst. cbn [elems_tight].
      destruct H as (H1 & H2). split; auto. rewrite (elem_end_cnts L a t t' Ht). eapply IH; eauto.
  Qed.

  Lemma rep_same_shape v l offs l' m' : RepO L v l offs -> same_shape l l' ->
    Forall (tuple_ok L (fixed_counts L (v_fixed v)) 0) l' ->
    Forall2 (fun a t => elem_at L m' a t) offs l' ->
    RepO L (set_mem v m') l' offs.
  Proof.
    intros R Hs Ht He. assert (Hl : length l' = length l) by (symmetry; exact (Forall2_len _ _ _ Hs)).
    constructor; [exact Ht|exact He| |rewrite Hl; exact (r_cap _ _ _ _ R)| |].
    - exact (eo_same_shape _ _ _ _ _ Hs (r_order _ _ _ _ R)).
    - pose proof (r_loc _ _ _ _ R) as H. cbn [set_mem v_tbl v_count v_stride v_last v_fixed v_cap]. rewrite Hl. exact H.
    - exact (et_same_shape _ _ _ _ _ Hs (r_tight _ _ _ _ R)).
  Qed.

  Lemma rep_same_shape_nth v l offs (l' : list tuple) m' : RepO L v l offs -> length l' = length l ->
    (forall k, (k < length l)%nat ->
       cnts_of (nth k l' []) = cnts_of (nth k l []) /\
       tuple_ok L (fixed_counts L (v_fixed v)) 0 (nth k l' []) /\
       elem_at L m' (nth k offs 0) (nth k l' [])) ->
    RepO L (set_mem v m') l' offs.
  Proof.
    intros R Hl H. pose proof (rep_len L v l offs R) as Hlen. apply (rep_same_shape v l offs l' m' R).
    - apply (Forall2_of_nth _ ([] : tuple) ([] : tuple)); [symmetry; exact Hl|]. intros k Hk. apply H. exact Hk.
    - apply (Forall_of_nth _ ([] : tuple)). intros k Hk. apply H. rewrite <- Hl. exact Hk.
    - apply (Forall2_of_nth _ 0 ([] : tuple)); [congruence|]. intros k Hk. apply H. rewrite <- Hlen. exact Hk.
  Qed.

  Lemma eo_pair : forall offs lo l hi, elems_ordered L lo offs l hi ->
    forall a b, (a < b < length offs)%nat -> elem_end L (nth a offs 0) (nth a l []) <= nth b offs 0.
  Proof. exact (Ordered.eo_pair L Hwf). Qed.

  Lemma ref_view v l offs k : RepO L v l offs -> (k < length l)%nat ->
    (0 <= nth k offs 0 /\ (SA L | nth k offs 0)) /\
    tuple_ok L (fixed_counts L (v_fixed v)) 0 (nth k l []) /\
    elem_at L (v_mem v) (nth k offs 0) (nth k l []) /\
    vfl L v (Z.of_nat k) = ref_fl L (nth k l []) (nth k offs 0).
  Proof.
    intros R Hk. destruct (rep_nth L Hwf v l offs k R Hk) as (A & B & _). split; [exact (conj A B)|].
    exact (rep_ref L Hwf v l offs k R Hk).
  Qed.

  Lemma off_ok v l offs : RepO L v l offs -> forall k, (k < length l)%nat -> 0 <= nth k offs 0 /\ (SA L | nth k offs 0).
  Proof. intros R k Hk. exact (proj1 (ref_view v l offs k R Hk)). Qed.

  (* an element whose bytes are kept stays what it was; stated in the form rep_same_shape_nth asks
     of every position, hence the trivial first conjunct *)
  Lemma rep_kept v l offs k m' : RepO L v l offs -> (k < length l)%nat ->
    (forall z, nth k offs 0 <= z < elem_end L (nth k offs 0) (nth k l []) -> m' z = v_mem v z) ->
    cnts_of (nth k l []) = cnts_of (nth k l []) /\
    tuple_ok L (fixed_counts L (v_fixed v)) 0 (nth k l []) /\
    elem_at L m' (nth k offs 0) (nth k l []).
  Proof.
    intros R Hk Hm. destruct (ref_view v l offs k R Hk) as (_ & Ht & He & _).
    split; [reflexivity|]. split; [exact Ht|]. exact (elem_at_ext L Hwf (v_mem v) m' _ _ _ Ht Hm He).
  Qed.

  Lemma elem_extents_disjoint v l offs i k z : RepO L v l offs -> (i < length l)%nat -> (k < length l)%nat -> k <> i ->
    nth k offs 0 <= z < elem_end L (nth k offs 0) (nth k l []) ->
    ~ (nth i offs 0 <= z < elem_end L (nth i offs 0) (nth i l [])).
  Proof.
    intros R Hi Hk Hki Hz. destruct (Nat.lt_ge_cases k i) as [Hlt|Hge].
    - pose proof (rep_pair L Hwf v l offs k i R ltac:(lia)). lia.
    - pose proof (rep_pair L Hwf v l offs i k R ltac:(lia)). lia.
  Qed.

  (* [e] is the end of element i in whichever form the caller knows it (end_i, end_shift2) *)
  Lemma rep_replace_elem v l offs i t m' e : RepO L v l offs -> (i < length l)%nat ->
    tuple_ok L (fixed_counts L (v_fixed v)) 0 t -> cnts_of t = cnts_of (nth i l []) ->
    elem_end L (nth i offs 0) (nth i l []) = e -> elem_at L m' (nth i offs 0) t ->
    (forall z, ~ (nth i offs 0 <= z < e) -> m' z = v_mem v z) ->
    RepO L (set_mem v m') (upd i t l) offs.
  Proof.
    intros R Hi Ht Hc Ee He Hfr. apply (rep_same_shape_nth v l offs (upd i t l) m' R (upd_length _ _ _)).
    intros k Hk. rewrite (upd_nth ([] : tuple) i t l k Hi). destruct (Nat.eqb_spec k i) as [->|Hne]; [auto|].
    apply (rep_kept v l offs k m' R Hk). intros z Hz. apply Hfr. rewrite <- Ee.
    exact (elem_extents_disjoint v l offs i k z R Hi Hk Hne Hz).
  Qed.
End Shape.

Section RefinesUpdate.
  Variable L : list param.
  Hypothesis Hwf : wf_plist L = true.
  Variables (v : vec) (l : list tuple) (offs : list Z).
  Hypothesis R : RepO L v l offs.
  Variables (i j : nat).
  Hypothesis Hi : (i < length l)%nat.
  Hypothesis Hj : (j < length l)%nat.
  Hypothesis Hij : i <> j.
  (* equal field sizes (automatic for lists without VaryingSize parameter) *)
  Hypothesis Hc : cnts_of (nth i l []) = cnts_of (nth j l []).

  Let ti := nth i l [].
  Let tj := nth j l [].
  Let ai := nth i offs 0.
  Let aj := nth j offs 0.
  Let fc := fixed_counts L (v_fixed v).
  Let m := v_mem v.
  Let len := elem_end L aj tj - aj.

  Lemma end_i : elem_end L ai ti = ai + len.
  Proof using Hwf R Hi Hj Hij Hc.
    unfold len. rewrite (elem_end_cnts L ai tj ti Hc).
    exact (elem_end_translate L Hwf aj ai tj (proj2 (off_ok L Hwf v l offs R j Hj)) (proj2 (off_ok L Hwf v l offs R i Hi))).
  Qed.

  Lemma disj : aj + len <= ai \/ ai + len <= aj.
  Proof.
    rewrite <- end_i. unfold len. destruct (Nat.lt_ge_cases i j) as [Hlt|Hge].
    - right. apply (rep_pair L Hwf v l offs i j R). lia.
    - left. pose proof (rep_pair L Hwf v l offs j i R ltac:(lia)). fold aj tj ai in H. lia.
  Qed.

  (* v[i] = v[j] *)
  Theorem ref_assign_refines_update :
    let r := ref_assign false L true v (Z.of_nat i) v (Z.of_nat j) in
    RepO L (fst (fst r)) (upd i tj l) offs /\
    (forall a, v_mem (snd (fst r)) a = v_mem (fst (fst r)) a).
  Proof using Hwf R Hi Hj Hij Hc.
    cbv zeta. rewrite ref_assign_fst. cbn [fst snd].
    destruct (ref_view L Hwf v l offs i R Hi) as (Oi & Hti & Hei & ->).
    destruct (ref_view L Hwf v l offs j R Hj) as (Oj & Htj & Hej & ->).
    destruct (same_vector_copy_assign L Hwf tj ti fc fc Htj Hti Hc m aj ai Oj Oi Hej disj (bidn (v_bid v)) (bidn (v_bid v)))
      as (Hsd & Hel & Hfr).
    split; [|exact Hsd].
    exact (rep_replace_elem L Hwf v l offs i tj _ _ R Hi Htj (eq_sym Hc) end_i Hel Hfr).
  Qed.

  (* swap(v[i], v[j]) *)
  Theorem ref_swap_refines_exchange :
    let r := ref_swap L true v (Z.of_nat i) v (Z.of_nat j) in
    RepO L (fst (fst r)) (upd i tj (upd j ti l)) offs /\
    (forall a, v_mem (snd (fst r)) a = v_mem (fst (fst r)) a).
  Proof using Hwf R Hi Hj Hij Hc.
    cbv zeta. rewrite ref_swap_fst. cbn [fst snd].
    destruct (ref_view L Hwf v l offs i R Hi) as (Oi & Hti & Hei & ->).
    destruct (ref_view L Hwf v l offs j R Hj) as (Oj & Htj & Hej & ->).
    destruct (same_vector_swap L Hwf tj ti fc fc Htj Hti Hc m aj ai Oj Oi Hej disj Hei (bidn (v_bid v)) (bidn (v_bid v)))
      as (Hsd & Helj & Heli & Hfr).
    split; [|exact Hsd].
    apply (rep_same_shape_nth L v l offs _ _ R); [rewrite !upd_length; reflexivity|].
    intros k Hk. rewrite (upd_nth ([] : tuple) i tj _ k) by (rewrite upd_length; exact Hi).
    rewrite (upd_nth ([] : tuple) j ti l k Hj).
    destruct (Nat.eqb_spec k i) as [->|Hni]; [auto|]. destruct (Nat.eqb_spec k j) as [->|Hnj]; [auto|].
    apply (rep_kept L Hwf v l offs k _ R Hk). intros z Hz. apply Hfr.
    - pose proof (elem_extents_disjoint L Hwf v l offs j k z R Hj Hk Hnj Hz) as D. fold aj tj in D. unfold len. lia.
    - pose proof (elem_extents_disjoint L Hwf v l offs i k z R Hi Hk Hni Hz) as D. fold ai ti in D. rewrite end_i in D. exact D.
  Qed.
End RefinesUpdate.

Lemma rep_mem_ext L : wf_plist L = true -> forall v l offs m', RepO L v l offs ->
  (forall z, m' z = v_mem v z) -> RepO L (set_mem v m') l offs.
Proof. intros Hwf v l offs m' R Hm. apply (Refine.rep_mem_ext L Hwf v l offs m' R). intros z _. apply Hm. Qed.

Theorem self_assign_refines_identity L : wf_plist L = true -> forall v l offs i mv, RepO L v l offs ->
  let r := ref_assign mv L true v i v i in
  RepO L (fst (fst r)) l offs /\ RepO L (snd (fst r)) l offs.
Proof.
  intros Hwf v l offs i mv R. cbv zeta. rewrite ref_assign_fst. cbn [fst snd].
  destruct (self_assignment_changes_nothing mv L (bidn (v_bid v)) (bidn (v_bid v)) (vfl L v i) (v_mem v) (seq 0 (length L)))
    as [H1 H2].
  split; apply (rep_mem_ext L Hwf); assumption.
Qed.

Theorem self_swap_refines_identity L : wf_plist L = true -> forall v l offs i, RepO L v l offs ->
  let r := ref_swap L true v i v i in
  RepO L (fst (fst r)) l offs /\ RepO L (snd (fst r)) l offs.
Proof.
  intros Hwf v l offs i R. cbv zeta. rewrite ref_swap_fst. cbn [fst snd].
  destruct (self_swap_changes_nothing L (bidn (v_bid v)) (bidn (v_bid v)) (vfl L v i) (v_mem v) (seq 0 (length L))) as [H1 H2].
  split; apply (rep_mem_ext L Hwf); assumption.
Qed.

(* Without a VaryingSize parameter all elements of a vector have equal field sizes, so any two
   of them can be assigned to / swapped with each other. *)
Lemma cnts_no_varying : forall L fc p p' t t', has_varying L = false ->
  tuple_ok L fc p t -> tuple_ok L fc p' t' -> cnts_of t = cnts_of t'.
Proof.
  induction L as [|q L IH]; intros fc p p' t t' Hv Ht Ht'.
  - destruct t; destruct t'; try reflexivity; destruct fc; contradiction.
  - destruct fc as [|c fc]; [destruct t; contradiction|].
    destruct t as [|f t]; [contradiction|]. destruct t' as [|f' t']; [contradiction|].
    cbn [tuple_ok] in Ht, Ht'. destruct Ht as (_ & Hl & Hr). destruct Ht' as (_ & Hl' & Hr').
    unfold has_varying in Hv. cbn [existsb] in Hv. apply orb_false_iff in Hv. destruct Hv as [Hq Hv].
    unfold cnts_of. cbn [map]. fold (cnts_of t) (cnts_of t'). f_equal.
    + unfold is_varying in Hq. destruct (pk q); cbn in Hq; try discriminate; congruence.
    + exact (IH fc _ _ t t' Hv Hr Hr').
Qed.

Lemma rep_cnts_fixed L : wf_plist L = true -> has_varying L = false -> forall v l offs i j, RepO L v l offs ->
  (i < length l)%nat -> (j < length l)%nat -> cnts_of (nth i l []) = cnts_of (nth j l []).
Proof.
  intros Hwf Hv v l offs i j R Hi Hj.
  apply (cnts_no_varying L (fixed_counts L (v_fixed v)) 0 0 _ _ Hv);
    [exact (proj1 (rep_ref L Hwf v l offs i R Hi))|exact (proj1 (rep_ref L Hwf v l offs j R Hj))].
Qed.

Theorem ref_assign_refines_update_fixed L : wf_plist L = true -> has_varying L = false ->
  forall v l offs i j, RepO L v l offs -> (i < length l)%nat -> (j < length l)%nat -> i <> j ->
  let r := ref_assign false L true v (Z.of_nat i) v (Z.of_nat j) in
  RepO L (fst (fst r)) (upd i (nth j l []) l) offs.
Proof.
  intros Hwf Hv v l offs i j R Hi Hj Hij.
  exact (proj1 (ref_assign_refines_update L Hwf v l offs R i j Hi Hj Hij (rep_cnts_fixed L Hwf Hv v l offs i j R Hi Hj))).
Qed.

Theorem ref_swap_refines_exchange_fixed L : wf_plist L = true -> has_varying L = false ->
  forall v l offs i j, RepO L v l offs -> (i < length l)%nat -> (j < length l)%nat -> i <> j ->
  let r := ref_swap L true v (Z.of_nat i) v (Z.of_nat j) in
  RepO L (fst (fst r)) (upd i (nth j l []) (upd j (nth i l []) l)) offs.
Proof.
  intros Hwf Hv v l offs i j R Hi Hj Hij.
  exact (proj1 (ref_swap_refines_exchange L Hwf v l offs R i j Hi Hj Hij (rep_cnts_fixed L Hwf Hv v l offs i j R Hi Hj))).
Qed.

(* Sequences of swaps within one vector: std::reverse, std::rotate, std::swap_ranges (World.swaps:
   the iter_swap sequences libstdc++ performs for random-access iterators). *)
Definition lswap (l : list tuple) (ij : nat * nat) : list tuple :=
  upd (fst ij) (nth (snd ij) l []) (upd (snd ij) (nth (fst ij) l []) l).

Lemma lswap_length l ij : length (lswap l ij) = length l.
Proof. unfold lswap. rewrite !upd_length. reflexivity. Qed.

Lemma fold_lswap_length : forall ps (l : list tuple), length (fold_left lswap ps l) = length l.
Proof. induction ps as [|p ps IH]; intros l; [reflexivity|]. cbn [fold_left]. rewrite IH. apply lswap_length. Qed.

Definition swap_ok (n : nat) (ij : nat * nat) : Prop := (fst ij < n)%nat /\ (snd ij < n)%nat /\ fst ij <> snd ij.

Theorem swaps_refine_exchanges L : wf_plist L = true -> has_varying L = false ->
  forall (ps : list (nat * nat)) n v l offs, RepO L v l offs -> length l = n ->
  Forall (swap_ok n) ps ->
  let zs := map (fun ij => (Z.of_nat (fst ij), Z.of_nat (snd ij))) ps in
  RepO L (fst (swaps L true v v zs)) (fold_left lswap ps l) offs.
Proof.
  intros Hwf Hv. induction ps as [|[i j] ps IH]; intros n v l offs R Hn Hok; cbv zeta; [exact R|].
  cbn [map fst snd swaps fold_left].
  inversion Hok as [|? ? (Hi & Hj & Hij) Hrest]; subst. cbn [fst snd] in Hi, Hj, Hij.
  pose proof (ref_swap_refines_exchange_fixed L Hwf Hv v l offs i j R Hi Hj Hij) as R1. cbv zeta in R1.
  destruct (ref_swap L true v (Z.of_nat i) v (Z.of_nat j)) as [[va1 vb1] e]. cbn [fst] in R1.
  apply (IH (length l) va1 (lswap l (i, j)) offs R1); [apply lswap_length|exact Hrest].
Qed.

(* An exchange, seen from the position that is read afterwards; a sequence of exchanges then acts
   on positions, and what reverse / rotate / swap_ranges do to a list is arithmetic on indices. *)
Definition swap_pos (ij : nat * nat) (k : nat) : nat :=
  if Nat.eqb k (fst ij) then snd ij else if Nat.eqb k (snd ij) then fst ij else k.

Lemma swap_pos_other i j k : k <> i -> k <> j -> swap_pos (i, j) k = k.
Proof. intros H1 H2. unfold swap_pos. cbn [fst snd]. apply Nat.eqb_neq in H1, H2. now rewrite H1, H2. Qed.
Lemma swap_pos_fst i j : swap_pos (i, j) i = j.
Proof. unfold swap_pos. cbn [fst snd]. now rewrite Nat.eqb_refl. Qed.
Lemma swap_pos_snd i j : swap_pos (i, j) j = i.
Proof. unfold swap_pos. cbn [fst snd]. rewrite Nat.eqb_refl. destruct (Nat.eqb_spec j i); congruence. Qed.

Lemma nth_lswap (l : list tuple) ij k : (fst ij < length l)%nat -> (snd ij < length l)%nat ->
  nth k (lswap l ij) [] = nth (swap_pos ij k) l [].
Proof.
  intros Hi Hj. unfold lswap, swap_pos.
  rewrite (upd_nth ([] : tuple) (fst ij) _ _ k) by (rewrite upd_length; exact Hi).
  destruct (Nat.eqb k (fst ij)); [reflexivity|].
  rewrite (upd_nth ([] : tuple) (snd ij) _ l k Hj). destruct (Nat.eqb k (snd ij)); reflexivity.
Qed.

Lemma nth_fold_lswap ps : forall (l : list tuple) k, Forall (swap_ok (length l)) ps ->
  nth k (fold_left lswap ps l) [] = nth (fold_right swap_pos k ps) l [].
Proof.
  induction ps as [|p ps IH]; intros l k H; [reflexivity|]. inversion H as [|? ? (Hi & Hj & _) Hr]; subst.
  cbn [fold_left fold_right]. rewrite IH by (rewrite lswap_length; exact Hr). apply nth_lswap; assumption.
Qed.

Lemma inb_spec a c k : reflect (a <= k < c)%nat ((a <=? k) && (k <? c))%nat.
Proof. destruct (Nat.leb_spec0 a k); destruct (Nat.ltb_spec0 k c); constructor; lia. Qed.

Lemma range_ex a n k : (a <= k < a + n)%nat -> exists t, k = (a + t)%nat /\ (t < n)%nat.
Proof. intros H. exists (k - a)%nat. lia. Qed.

(* The exchanges (a + t, g t), t < m, when no position occurs in two of them: the positions
   a + t and g t read each other, every other position reads itself. *)
Section Exchanges.
  Variables (a : nat) (g : nat -> nat) (m : nat).
  Hypothesis Hag : forall s t, (s < m)%nat -> (t < m)%nat -> (a + s)%nat <> g t.
  Hypothesis Hgg : forall s t, (s < t < m)%nat -> g s <> g t.
  Let ps n := map (fun t => (a + t, g t)%nat) (seq 0 n).

  Lemma ps_S n k : fold_right swap_pos k (ps (S n)) = fold_right swap_pos (swap_pos (a + n, g n)%nat k) (ps n).
  Proof. unfold ps. rewrite seq_S, map_app, fold_right_app. reflexivity. Qed.

  Lemma exch_other n k : (forall t, (t < n)%nat -> k <> (a + t)%nat /\ k <> g t) -> fold_right swap_pos k (ps n) = k.
  Proof.
    induction n as [|n IH]; intros Hk; [reflexivity|]. rewrite ps_S, swap_pos_other by (apply Hk; lia).
    apply IH. intros t Ht. apply Hk. lia.
  Qed.

  Lemma exch_fst n t : (n <= m)%nat -> (t < n)%nat -> fold_right swap_pos (a + t)%nat (ps n) = g t.
  Proof.
    induction n as [|n IH]; intros Hn Ht; [lia|]. rewrite ps_S. destruct (Nat.eq_dec t n) as [->|Hne].
    - rewrite swap_pos_fst. apply exch_other. intros s Hs. split.
      + intros E. exact (Hag s n ltac:(lia) ltac:(lia) (eq_sym E)).
      + intros E. exact (Hgg s n ltac:(lia) (eq_sym E)).
    - rewrite swap_pos_other; [apply IH; lia|lia|apply Hag; lia].
  Qed.

  Lemma exch_snd n t : (n <= m)%nat -> (t < n)%nat -> fold_right swap_pos (g t) (ps n) = (a + t)%nat.
  Proof.
    induction n as [|n IH]; intros Hn Ht; [lia|]. rewrite ps_S. destruct (Nat.eq_dec t n) as [->|Hne].
    - rewrite swap_pos_snd. apply exch_other. intros s Hs. split; [lia|apply Hag; lia].
    - rewrite swap_pos_other; [apply IH; lia| |apply Hgg; lia].
      intros E. exact (Hag n t ltac:(lia) ltac:(lia) (eq_sym E)).
  Qed.

  Lemma exch_valid n : (forall t, (t < m)%nat -> (a + t < n)%nat /\ (g t < n)%nat) -> Forall (swap_ok n) (ps m).
  Proof.
    intros H. apply Forall_forall. intros ij Hin. apply in_map_iff in Hin. destruct Hin as (t & <- & Ht).
    apply in_seq in Ht. destruct (H t (proj2 Ht)) as [H1 H2]. exact (conj H1 (conj H2 (Hag t t (proj2 Ht) (proj2 Ht)))).
  Qed.
End Exchanges.

(* std::reverse(begin + a, begin + c) *)
Definition rev_pairs_nat (a c : nat) : list (nat * nat) :=
  map (fun t => (a + t, c - 1 - t)%nat) (seq 0 ((c - a) / 2)).

(* The number of exchanges and the right-hand position of the t-th one, specified without
   division and truncated subtraction: the arithmetic below sees only these two facts. *)
Lemma half_bounds a c : (a <= c)%nat -> (a + 2 * ((c - a) / 2) <= c < a + 2 * ((c - a) / 2) + 2)%nat.
Proof.
  intros Hac. pose proof (Nat.div_mod (c - a) 2 ltac:(lia)). pose proof (Nat.mod_upper_bound (c - a) 2 ltac:(lia)). lia.
Qed.

Lemma mirror_spec a c m : (a + 2 * m <= c)%nat -> forall t, (t < m)%nat -> (c - 1 - t + t + 1 = c)%nat.
Proof. lia. Qed.

(* After the first m exchanges of reverse a position of the left margin [a, a + m) or of the right
   margin [c - m, c) reads its mirror image x (x + k + 1 = a + c), every other one itself. *)
Section ReverseIndex.
  Variables (a c m : nat) (g : nat -> nat).
  Hypothesis Hm : (a + 2 * m <= c)%nat.
  Hypothesis Hg : forall t, (t < m)%nat -> (g t + t + 1 = c)%nat.
  Let ps := map (fun t => (a + t, g t)%nat) (seq 0 m).

  Lemma rev_ag s t : (s < m)%nat -> (t < m)%nat -> (a + s)%nat <> g t.
  Proof. intros Hs Ht. pose proof (Hg t Ht). lia. Qed.
  Lemma rev_gg s t : (s < t < m)%nat -> g s <> g t.
  Proof. intros Hst. pose proof (Hg s ltac:(lia)). pose proof (Hg t ltac:(lia)). lia. Qed.

  Lemma rev_out k : ~ (a <= k < a + m)%nat -> ~ (c <= k + m /\ k < c)%nat -> fold_right swap_pos k ps = k.
  Proof using Hg.
    (* here and below hypotheses are cleared before lia: its certificate grows with the context *)
    clear Hm. intros H1 H2. apply exch_other. intros t Ht. pose proof (Hg t Ht) as E.
    split; intros ->; [apply H1; clear H2|apply H2; clear H1]; lia.
  Qed.

  Lemma rev_lo k : (a <= k < a + m)%nat -> (fold_right swap_pos k ps + k + 1 = a + c)%nat.
  Proof.
    intros H1. destruct (range_ex a m k H1) as (t & -> & Ht).
    unfold ps. rewrite (exch_fst a g m rev_ag rev_gg m t (le_n m) Ht). pose proof (Hg t Ht). lia.
  Qed.

  Lemma rev_hi k : (c <= k + m)%nat -> (k < c)%nat -> (fold_right swap_pos k ps + k + 1 = a + c)%nat.
  Proof.
    intros H1 H2. destruct (Nat.le_exists_sub (S k) c H2) as (t & E & _).
    assert (Ht : (t < m)%nat) by lia. pose proof (Hg t Ht) as Et.
    replace k with (g t) at 1 by lia. unfold ps. rewrite (exch_snd a g m rev_ag rev_gg m t (le_n m) Ht). lia.
  Qed.

  Lemma rev_valid n : (c <= n)%nat -> Forall (swap_ok n) ps.
  Proof. intros Hn. apply (exch_valid a g m rev_ag). intros t Ht. pose proof (Hg t Ht). lia. Qed.
End ReverseIndex.

Lemma rev_pairs_nat_Z a c : (a <= c)%nat ->
  map (fun ij => (Z.of_nat (fst ij), Z.of_nat (snd ij))) (rev_pairs_nat a c) = rev_pairs (Z.of_nat a) (Z.of_nat c).
Proof.
  intros Hac. unfold rev_pairs_nat, rev_pairs. rewrite map_map, <- Nat2Z.inj_sub by exact Hac.
  change 2 with (Z.of_nat 2). rewrite <- Nat2Z.inj_div, Nat2Z.id.
  apply map_ext_in. intros t Ht. apply in_seq in Ht. cbn [fst snd].
  pose proof (mirror_spec a c _ (proj1 (half_bounds a c Hac)) t (proj2 Ht)) as E. revert E.
  generalize (c - 1 - t)%nat. intros hi E. f_equal; lia.
Qed.

Lemma rev_pairs_nat_valid a c n : (a <= c)%nat -> (c <= n)%nat -> Forall (swap_ok n) (rev_pairs_nat a c).
Proof. intros Hac. pose proof (proj1 (half_bounds a c Hac)) as Hh. exact (rev_valid a c _ _ Hh (mirror_spec a c _ Hh) n). Qed.

Theorem reverse_refines L : wf_plist L = true -> has_varying L = false ->
  forall v l offs a c, RepO L v l offs -> (a <= c)%nat -> (c <= length l)%nat ->
  RepO L (fst (swaps L true v v (rev_pairs (Z.of_nat a) (Z.of_nat c)))) (fold_left lswap (rev_pairs_nat a c) l) offs.
Proof.
  intros Hwf Hv v l offs a c R Hac Hcl. rewrite <- (rev_pairs_nat_Z a c Hac).
  exact (swaps_refine_exchanges L Hwf Hv (rev_pairs_nat a c) (length l) v l offs R eq_refl
           (rev_pairs_nat_valid a c (length l) Hac Hcl)).
Qed.

(* the exchanges of std::reverse do reverse the segment (an instance; lswap is list surgery only) *)
Example reverse_exchanges_reverse :
  fold_left lswap (rev_pairs_nat 1 6) [[[[0]]]; [[[1]]]; [[[2]]]; [[[3]]]; [[[4]]]; [[[5]]]; [[[6]]]] =
  [[[[0]]]; [[[5]]]; [[[4]]]; [[[3]]]; [[[2]]]; [[[1]]]; [[[6]]]].
Proof. reflexivity. Qed.

Lemma mirror_index x k s : (x + k + 1 = s -> x = s - 1 - k)%nat.
Proof. lia. Qed.

Lemma fold_rev_nth (l : list tuple) a c : (a <= c)%nat -> (c <= length l)%nat ->
  forall m, (m <= (c - a) / 2)%nat -> forall k,
  nth k (fold_left lswap (map (fun t => (a + t, c - 1 - t)%nat) (seq 0 m)) l) [] =
  if ((a <=? k) && (k <? a + m) || (c - m <=? k) && (k <? c))%nat then nth (a + c - 1 - k) l [] else nth k l [].
Proof.
  intros Hac Hcl m Hm k. assert (Hm' : (a + 2 * m <= c)%nat).
  { pose proof (proj1 (half_bounds a c Hac)) as Hh. revert Hm Hh. generalize ((c - a) / 2)%nat. intros h Hm Hh. lia. }
  clear Hm. pose proof (mirror_spec a c m Hm') as Hg.
  rewrite nth_fold_lswap by exact (rev_valid a c m _ Hm' Hg _ Hcl).
  destruct (inb_spec a (a + m) k) as [H1|H1]; [|destruct (inb_spec (c - m) c k) as [H3|H3]]; cbn [orb].
  - f_equal. exact (mirror_index _ _ _ (rev_lo a c m _ Hm' Hg k H1)).
  - f_equal. apply mirror_index, (rev_hi a c m _ Hm' Hg); clear Hg H1; lia.
  - rewrite (rev_out a c m _ Hg); [reflexivity|exact H1|]. clear Hg H1. intros [A B]. apply H3. lia.
Qed.

Lemma rev_pairs_in a c k : (a <= k < c)%nat -> (fold_right swap_pos k (rev_pairs_nat a c) + k + 1 = a + c)%nat.
Proof.
  intros Hk. unfold rev_pairs_nat. pose proof (half_bounds a c ltac:(lia)) as [Hh H2]. revert Hh H2.
  generalize ((c - a) / 2)%nat. intros h Hh H2. pose proof (mirror_spec a c h Hh) as Hg.
  destruct (Nat.lt_ge_cases k (a + h)); [apply (rev_lo a c h _ Hh Hg); lia|].
  destruct (Nat.le_gt_cases c (k + h)); [apply (rev_hi a c h _ Hh Hg); lia|].
  (* the middle element of an odd segment stays where it is - and is its own mirror image *)
  rewrite (rev_out a c h _ Hg) by lia. lia.
Qed.

Lemma rev_pairs_out a c k : (a <= c)%nat -> ~ (a <= k < c)%nat -> fold_right swap_pos k (rev_pairs_nat a c) = k.
Proof.
  intros Hac Hk. pose proof (proj1 (half_bounds a c Hac)) as Hh.
  apply (rev_out a c _ _ (mirror_spec a c _ Hh)); lia.
Qed.

Theorem reverse_elementwise (l : list tuple) a c : (a <= c)%nat -> (c <= length l)%nat -> forall k,
  nth k (fold_left lswap (rev_pairs_nat a c) l) [] =
  if ((a <=? k) && (k <? c))%nat then nth (a + c - 1 - k) l [] else nth k l [].
Proof.
  intros Hac Hcl k. rewrite nth_fold_lswap by exact (rev_pairs_nat_valid a c _ Hac Hcl).
  destruct (inb_spec a c k) as [Hk|Hk].
  - f_equal. exact (mirror_index _ _ _ (rev_pairs_in a c k Hk)).
  - rewrite (rev_pairs_out a c k Hac Hk). reflexivity.
Qed.

(* std::rotate(begin + a, begin + b, begin + c), as three reversals: position k of [a, c) ends up
   holding what position k + (b - a) held (cyclically inside [a, c)) *)
Theorem rotate_elementwise (l : list tuple) a b c : (a <= b)%nat -> (b <= c)%nat -> (c <= length l)%nat -> forall k,
  nth k (fold_left lswap (rev_pairs_nat a b ++ rev_pairs_nat b c ++ rev_pairs_nat a c) l) [] =
  if ((a <=? k) && (k <? c))%nat
  then (if (k <? a + (c - b))%nat then nth (k + (b - a)) l [] else nth (k - (c - b)) l [])
  else nth k l [].
Proof.
  intros Hab Hbc Hcl k. rewrite nth_fold_lswap, !fold_right_app.
  2:{ rewrite !Forall_app. repeat split; apply rev_pairs_nat_valid; lia. }
  (* write b = a + e and c = b + d *)
  destruct (Nat.le_exists_sub a b Hab) as (e & -> & _). destruct (Nat.le_exists_sub (e + a) c Hbc) as (d & -> & _).
  rewrite !Nat.add_sub. clear Hab Hbc Hcl.
  (* the three mirror images, innermost first: k3 in [a, c), k2 in [b, c), k1 in [a, b) *)
  destruct (inb_spec a (d + (e + a)) k) as [Hk|Hk].
  - pose proof (rev_pairs_in a _ k Hk) as H3. revert H3.
    generalize (fold_right swap_pos k (rev_pairs_nat a (d + (e + a)))). intros k3 H3.
    destruct (Nat.ltb_spec k (a + d)) as [Hlt|Hge].
    + pose proof (rev_pairs_in (e + a) (d + (e + a)) k3 ltac:(lia)) as H2. revert H2.
      generalize (fold_right swap_pos k3 (rev_pairs_nat (e + a) (d + (e + a)))). intros k2 H2.
      rewrite rev_pairs_out by lia. f_equal. lia.
    + rewrite (rev_pairs_out (e + a) (d + (e + a)) k3) by lia.
      pose proof (rev_pairs_in a (e + a) k3 ltac:(lia)) as H1. f_equal. lia.
  - rewrite (rev_pairs_out a _ k), (rev_pairs_out (e + a) _ k), (rev_pairs_out a (e + a) k) by lia. reflexivity.
Qed.

Theorem rotate_refines L : wf_plist L = true -> has_varying L = false ->
  forall v l offs a b c, RepO L v l offs -> (a <= b)%nat -> (b <= c)%nat -> (c <= length l)%nat ->
  RepO L (fst (swaps L true v v (rev_pairs (Z.of_nat a) (Z.of_nat b) ++ rev_pairs (Z.of_nat b) (Z.of_nat c) ++
                                  rev_pairs (Z.of_nat a) (Z.of_nat c))))
       (fold_left lswap (rev_pairs_nat a b ++ rev_pairs_nat b c ++ rev_pairs_nat a c) l) offs.
Proof.
  intros Hwf Hv v l offs a b c R Hab Hbc Hcl.
  rewrite <- (rev_pairs_nat_Z a b Hab), <- (rev_pairs_nat_Z b c Hbc), <- (rev_pairs_nat_Z a c ltac:(lia)).
  rewrite <- !map_app.
  apply (swaps_refine_exchanges L Hwf Hv _ (length l) v l offs R eq_refl).
  apply Forall_app. split; [|apply Forall_app; split]; apply rev_pairs_nat_valid; lia.
Qed.

(* std::swap_ranges(begin + a, begin + b, begin + c) within one vector, the ranges not overlapping *)
Definition range_pairs_nat (a b c : nat) : list (nat * nat) :=
  map (fun t => (a + t, c + t)%nat) (seq 0 (b - a)).

Lemma range_pairs_nat_Z a b c : (a <= b)%nat ->
  map (fun ij => (Z.of_nat (fst ij), Z.of_nat (snd ij))) (range_pairs_nat a b c) =
  range_pairs (Z.of_nat a) (Z.of_nat b) (Z.of_nat c).
Proof.
  intros Hab. unfold range_pairs_nat, range_pairs. rewrite map_map, <- Nat2Z.inj_sub, Nat2Z.id by exact Hab.
  apply map_ext. intros t. cbn [fst snd]. rewrite !Nat2Z.inj_add. reflexivity.
Qed.

Section RangeIndex.
  Variables a c n : nat.
  Hypothesis Hd : (a + n <= c \/ c + n <= a)%nat.

  Lemma range_ag s t : (s < n)%nat -> (t < n)%nat -> (a + s)%nat <> (c + t)%nat.
  Proof. lia. Qed.
  Lemma range_gg s t : (s < t < n)%nat -> (c + s)%nat <> (c + t)%nat.
  Proof. clear Hd. lia. Qed.

  Lemma range_valid N : (a + n <= N)%nat -> (c + n <= N)%nat ->
    Forall (swap_ok N) (map (fun t => (a + t, c + t)%nat) (seq 0 n)).
  Proof. intros Ha Hc. apply (exch_valid a _ n range_ag). intros t Ht. lia. Qed.

  Lemma fold_range_nth (l : list tuple) k : (a + n <= length l)%nat -> (c + n <= length l)%nat ->
    nth k (fold_left lswap (map (fun t => (a + t, c + t)%nat) (seq 0 n)) l) [] =
    if ((a <=? k) && (k <? a + n))%nat then nth (k - a + c) l []
    else if ((c <=? k) && (k <? c + n))%nat then nth (k - c + a) l [] else nth k l [].
  Proof.
    intros Ha Hc. rewrite nth_fold_lswap by exact (range_valid _ Ha Hc).
    destruct (inb_spec a (a + n) k) as [H1|H1]; [|destruct (inb_spec c (c + n) k) as [H2|H2]].
    - destruct (range_ex a n k H1) as (t & -> & Ht).
      rewrite (exch_fst a _ n range_ag range_gg n t (le_n n) Ht). f_equal. clear. lia.
    - destruct (range_ex c n k H2) as (t & -> & Ht).
      rewrite (exch_snd a (fun t => (c + t)%nat) n range_ag range_gg n t (le_n n) Ht). f_equal. clear. lia.
    - rewrite exch_other; [reflexivity|]. intros t Ht. clear Hd Ha Hc. lia.
  Qed.
End RangeIndex.

Theorem swap_ranges_elementwise (l : list tuple) a b c : (a <= b)%nat -> (b <= length l)%nat ->
  (c + (b - a) <= length l)%nat -> (b <= c \/ c + (b - a) <= a)%nat -> forall k,
  nth k (fold_left lswap (range_pairs_nat a b c) l) [] =
  if ((a <=? k) && (k <? b))%nat then nth (k - a + c) l []
  else if ((c <=? k) && (k <? c + (b - a)))%nat then nth (k - c + a) l [] else nth k l [].
Proof.
  intros Hab Hbl Hcl Hd k. unfold range_pairs_nat.
  rewrite (fold_range_nth a c (b - a) ltac:(lia) l k ltac:(lia) Hcl).
  replace (a + (b - a))%nat with b by lia. reflexivity.
Qed.

Theorem swap_ranges_refines L : wf_plist L = true -> has_varying L = false ->
  forall v l offs a b c, RepO L v l offs -> (a <= b)%nat -> (b <= length l)%nat ->
  (c + (b - a) <= length l)%nat -> (b <= c \/ c + (b - a) <= a)%nat ->
  RepO L (fst (swaps L true v v (range_pairs (Z.of_nat a) (Z.of_nat b) (Z.of_nat c))))
       (fold_left lswap (range_pairs_nat a b c) l) offs.
Proof.
  intros Hwf Hv v l offs a b c R Hab Hbl Hcl Hd. rewrite <- (range_pairs_nat_Z a b c Hab).
  apply (swaps_refine_exchanges L Hwf Hv _ (length l) v l offs R eq_refl).
  apply (range_valid a c (b - a)); [|clear Hd|]; lia.
Qed.

(* Two vectors may differ in their FixedSize counts: a tuple of the one fits the description of
   the other if it has the field sizes of a tuple that does. *)
Lemma tuple_ok_transfer : forall L fc fc' p p' t t',
  tuple_ok L fc p t -> tuple_ok L fc' p' t' -> cnts_of t = cnts_of t' -> tuple_ok L fc' p t.
Proof.
  induction L as [|q L IH]; intros fc fc' p p' t t' Ht Ht' Hc.
  - destruct t; [exact I|destruct fc; contradiction].
  - destruct fc as [|c fc]; [destruct t; contradiction|]. destruct t as [|f t]; [contradiction|].
    destruct fc' as [|c' fc']; [destruct t'; contradiction|]. destruct t' as [|f' t']; [contradiction|].
    cbn [tuple_ok] in *. destruct Ht as (Hf & Hl & Hr). destruct Ht' as (_ & Hl' & Hr').
    unfold cnts_of in Hc. cbn [map] in Hc. inversion Hc as [[Hlen Hrest]].
    split; [exact Hf|]. split.
    + destruct (pk q); congruence.
    + exact (IH fc fc' _ _ t t' Hr Hr' Hrest).
Qed.

Section TwoVectors.
  Variable L : list param.
  Hypothesis Hwf : wf_plist L = true.

  Variables (vd vs : vec) (ld ls : list tuple) (od os : list Z).
  Hypothesis Rd : RepO L vd ld od.
  Hypothesis Rs : RepO L vs ls os.
  Variables (i j : nat).
  Hypothesis Hi : (i < length ld)%nat.
  Hypothesis Hj : (j < length ls)%nat.
  Hypothesis Hc : cnts_of (nth i ld []) = cnts_of (nth j ls []).

  Lemma end_shift2 : elem_end L (nth i od 0) (nth i ld []) = nth i od 0 + (elem_end L (nth j os 0) (nth j ls []) - nth j os 0).
  Proof.
    rewrite (elem_end_cnts L (nth i od 0) (nth j ls []) (nth i ld []) Hc).
    exact (elem_end_translate L Hwf _ _ _ (proj2 (off_ok L Hwf vs ls os Rs j Hj)) (proj2 (off_ok L Hwf vd ld od Rd i Hi))).
  Qed.
  Lemma end_shift2' : elem_end L (nth j os 0) (nth j ls []) = nth j os 0 + (elem_end L (nth i od 0) (nth i ld []) - nth i od 0).
  Proof using Hwf Rd Rs Hi Hj Hc. rewrite end_shift2. lia. Qed.

  (* vd[i] = vs[j] *)
  Theorem ref_assign_refines_update_two :
    let r := ref_assign false L false vd (Z.of_nat i) vs (Z.of_nat j) in
    RepO L (fst (fst r)) (upd i (nth j ls []) ld) od /\ RepO L (snd (fst r)) ls os.
  Proof.
    cbv zeta. rewrite ref_assign_fst. cbn [fst snd].
    destruct (ref_view L Hwf vd ld od i Rd Hi) as (Oi & Hti & Hei & ->).
    destruct (ref_view L Hwf vs ls os j Rs Hj) as (Oj & Htj & Hej & ->).
    destruct (ref_assign_copy L Hwf _ _ _ _ Htj Hti Hc (v_mem vs) (v_mem vd) _ _ Oj Oi Hej (bidn (v_bid vs)) (bidn (v_bid vd)))
      as (Hs & Hel & Hfr).
    split.
    - exact (rep_replace_elem L Hwf vd ld od i _ _ _ Rd Hi (tuple_ok_transfer L _ _ _ _ _ _ Htj Hti (eq_sym Hc)) (eq_sym Hc)
               end_shift2 Hel Hfr).
    - apply (rep_mem_ext L Hwf); [exact Rs|]. intros z. rewrite Hs. reflexivity.
  Qed.

  (* swap(vd[i], vs[j]) *)
  Theorem ref_swap_refines_exchange_two :
    let r := ref_swap L false vd (Z.of_nat i) vs (Z.of_nat j) in
    RepO L (fst (fst r)) (upd i (nth j ls []) ld) od /\ RepO L (snd (fst r)) (upd j (nth i ld []) ls) os.
  Proof.
    cbv zeta. rewrite ref_swap_fst. cbn [fst snd].
    destruct (ref_view L Hwf vd ld od i Rd Hi) as (Oi & Hti & Hei & ->).
    destruct (ref_view L Hwf vs ls os j Rs Hj) as (Oj & Htj & Hej & ->).
    destruct (ref_swap_exchanges L Hwf _ _ _ _ Htj Hti Hc (v_mem vs) (v_mem vd) _ _ Oj Oi Hej Hei (bidn (v_bid vs)) (bidn (v_bid vd)))
      as (H1 & H2 & H3 & H4).
    split.
    - exact (rep_replace_elem L Hwf vd ld od i _ _ _ Rd Hi (tuple_ok_transfer L _ _ _ _ _ _ Htj Hti (eq_sym Hc)) (eq_sym Hc)
               end_shift2 H2 H4).
    - exact (rep_replace_elem L Hwf vs ls os j _ _ _ Rs Hj (tuple_ok_transfer L _ _ _ _ _ _ Hti Htj Hc) Hc
               (eq_sym (Zplus_minus _ _)) H1 H3).
  Qed.
End TwoVectors.
